(** * Effects: what each primitive operation does once its bound checks succeed,
    stated point-wise on the accessors [tag], [prs], [dat], [edg], [members]
    and [store], with [same_except_vertices] for the container sizes and the
    allocator position.  No invariant is assumed.  [op_bind] is first brought
    into the form [bind_groups], whose cases are calls of [join_group]; the
    edge list it writes is [spec_insert] of Spec.v, the insert of the reference
    model, which is [mm_insert] without the bound ([mm_insert_ok]).  The last
    part: [op_add], [op_bind], [op_put], [op_kid] and [op_next_id] end in a
    result or a panic ([fine]). *)

From Sodg Require Export Facts Spec.

(** Sizes and allocator position only: member lists and counters may differ
    as well as vertices. *)
Record same_except_vertices (g g' : sodg) : Prop := {
  se_cap : cap_of g' = cap_of g;
  se_nb : nb g' = nb g;
  se_ns : ns g' = ns g;
  se_next : g_next g' = g_next g
}.

Lemma sev_refl g : same_except_vertices g g.
Proof. split; reflexivity. Qed.

Lemma sev_trans {a b c} :
  same_except_vertices a b -> same_except_vertices b c -> same_except_vertices a c.
Proof. intros [] []. split; congruence. Qed.

(** [sev_vtx] serves [set_tag], [set_edges] and [set_prs] too: they unfold to [set_vtx] *)
Lemma sev_vtx g g' v x : same_except_vertices g g' -> same_except_vertices g (set_vtx g' v x).
Proof. intros []. split; [rewrite cap_set_vtx|..]; assumption. Qed.

Lemma sev_members g g' b m : same_except_vertices g g' -> same_except_vertices g (set_members g' b m).
Proof. intros []. split; [|rewrite nb_set_members|..]; assumption. Qed.

Lemma sev_store g g' b k : same_except_vertices g g' -> same_except_vertices g (set_store g' b k).
Proof. intros []. split; [| |rewrite ns_set_store|]; assumption. Qed.

Lemma kill_ok : forall ms g,
  (forall m, In m ms -> m < cap_of g) ->
  exists g', kill g ms = Ok g'
    /\ (forall w, tag g' w = if mem w ms then 0 else tag g w)
    /\ (forall w, prs g' w = prs g w) /\ (forall w, dat g' w = dat g w)
    /\ (forall w, edg g' w = edg g w)
    /\ (forall b, members g' b = members g b) /\ (forall b, store g' b = store g b)
    /\ same_except_vertices g g'.
Proof.
  induction ms as [|m t IH]; intros g Hms.
  - exists g. repeat split; reflexivity.
  - assert (Hm : m < cap_of g) by (apply Hms; left; reflexivity).
    destruct (IH (set_tag g m BRANCH_NONE)) as (g' & K & T & P & D & E & M & S & X).
    { intros x Hx. rewrite cap_set_tag. apply Hms. right; exact Hx. }
    exists g'. cbn [kill]. rewrite chk_v_ok by exact Hm. repeat apply conj; try assumption.
    + intros w. rewrite T, tag_set_tag, if_hit, mem_cons by exact Hm.
      destruct (w =? m), (mem w t); reflexivity.
    + intros w. rewrite P. apply prs_set_tag.
    + intros w. rewrite D. apply dat_set_tag.
    + intros w. rewrite E. apply edg_set_tag.
    + refine (sev_trans _ X). apply sev_vtx, sev_refl.
Qed.

Lemma push_member_ok g b v :
  b < nb g -> b < ns g -> length (members g b) < 16 ->
  push_member g b v = Ok (set_members g b (members g b ++ [v])).
Proof.
  intros H1 H2 H3. unfold push_member. rewrite chk_b_ok by assumption. cbn [obind].
  unfold MAX_BRANCH_SIZE. apply Nat.ltb_lt in H3. rewrite H3. reflexivity.
Qed.

Lemma add_store_ok g b n :
  b < nb g -> b < ns g -> add_store g b n = Ok (set_store g b (store g b + n)).
Proof. intros H1 H2. unfold add_store. rewrite chk_b_ok by assumption. reflexivity. Qed.

Lemma push_member_inv g b v g' :
  push_member g b v = Ok g' -> g' = set_members g b (members g b ++ [v]).
Proof.
  unfold push_member. destruct (chk_b g b); cbn [obind]; try discriminate.
  destruct (_ <? _); [|discriminate]. intros H; injection H as <-. reflexivity.
Qed.

Lemma add_store_inv g b k g' :
  add_store g b k = Ok g' -> g' = set_store g b (store g b + k).
Proof.
  unfold add_store. destruct (chk_b g b); cbn [obind]; try discriminate.
  intros H; injection H as <-. reflexivity.
Qed.

(** the common tail of the three branches of [bind] that change a group:
    vertex [x] takes tag [t], is pushed on slot [t], the counter of [t] grows by [k] *)
Definition join_group (g : sodg) (t x k : nat) : outcome sodg :=
  g' <- push_member (set_tag g x t) t x ;; add_store g' t k.

Lemma join_group_effect g t x k :
  x < cap_of g -> t < nb g -> t < ns g -> length (members g t) < 16 ->
  exists g', join_group g t x k = Ok g'
    /\ (forall w, tag g' w = if w =? x then t else tag g w)
    /\ (forall w, prs g' w = prs g w) /\ (forall w, dat g' w = dat g w)
    /\ (forall w, edg g' w = edg g w)
    /\ (forall c, members g' c = if c =? t then members g c ++ [x] else members g c)
    /\ (forall c, store g' c = if c =? t then store g c + k else store g c)
    /\ same_except_vertices g g'.
Proof.
  intros Hx Hb Hs Hl. unfold join_group.
  rewrite push_member_ok by assumption. cbn [obind].
  rewrite add_store_ok by (rewrite ?nb_set_members; assumption).
  eexists. split; [reflexivity|]. repeat apply conj.
  - intros w. rewrite tag_set_store, tag_set_members, tag_set_tag. apply if_hit, Hx.
  - intros w. apply prs_set_tag.
  - intros w. apply dat_set_tag.
  - intros w. apply edg_set_tag.
  - intros c. rewrite members_set_store, members_set_members, if_hit by exact Hb.
    destruct (Nat.eqb_spec c t) as [->|]; reflexivity.
  - intros c. rewrite store_set_store, if_hit by exact Hs.
    destruct (Nat.eqb_spec c t) as [->|]; reflexivity.
  - apply sev_store, sev_members, sev_vtx, sev_refl.
Qed.

(** the same after the edge of [bind] has been written *)
Lemma join_after_edges g v e t x k :
  v < cap_of g -> x < cap_of g -> t < nb g -> t < ns g -> length (members g t) < 16 ->
  exists g', join_group (set_edges g v e) t x k = Ok g'
    /\ (forall w, tag g' w = if w =? x then t else tag g w)
    /\ (forall w, prs g' w = prs g w) /\ (forall w, dat g' w = dat g w)
    /\ (forall w, edg g' w = if w =? v then e else edg g w)
    /\ (forall c, members g' c = if c =? t then members g c ++ [x] else members g c)
    /\ (forall c, store g' c = if c =? t then store g c + k else store g c)
    /\ same_except_vertices g g'.
Proof.
  intros Hv Hx Hb Hs Hl.
  destruct (join_group_effect (set_edges g v e) t x k) as (g' & J & T & P & D & E & M & S & X);
    try assumption.
  { rewrite cap_set_edges. exact Hx. }
  exists g'. repeat apply conj; try assumption.
  - intros w. rewrite T, tag_set_edges. reflexivity.
  - intros w. rewrite P. apply prs_set_edges.
  - intros w. rewrite D. apply dat_set_edges.
  - intros w. rewrite E, edg_set_edges. apply if_hit, Hv.
  - refine (sev_trans _ X). apply sev_vtx, sev_refl.
Qed.

Lemma mm_insert_ok n e a v :
  mm_get e a <> None \/ length e < n -> mm_insert n e a v = Ok (spec_insert e a v).
Proof.
  intros H. unfold mm_insert, spec_insert. destruct (mm_replace e a v) eqn:R; [reflexivity|].
  apply mm_replace_none in R. destruct H as [H|H]; [congruence|].
  apply Nat.ltb_lt in H. rewrite H. reflexivity.
Qed.

Lemma spec_insert_fresh e a v : mm_get e a = None -> spec_insert e a v = e ++ [(a, v)].
Proof. intros H. unfold spec_insert. rewrite (proj2 (mm_replace_none e a v) H). reflexivity. Qed.

Lemma spec_insert_in e a v b x : In (b, x) (spec_insert e a v) -> In (b, x) e \/ b = a /\ x = v.
Proof. apply (mm_insert_in (S (length e))), mm_insert_ok. right. apply Nat.lt_succ_diag_r. Qed.

Lemma mm_get_spec_insert e a v b :
  mm_get (spec_insert e a v) b = if label_eqb a b then Some v else mm_get e b.
Proof. apply (mm_get_insert (S (length e))), mm_insert_ok. right. apply Nat.lt_succ_diag_r. Qed.

Lemma spec_insert_keys e a v :
  map fst (spec_insert e a v) = if in_dec label_eq_dec a (map fst e) then map fst e else map fst e ++ [a].
Proof.
  unfold spec_insert. destruct (in_dec label_eq_dec a (map fst e)) as [Hi|Hn].
  - apply mm_get_in_keys in Hi. destruct (mm_replace e a v) as [e'|] eqn:R.
    + exact (mm_replace_keys _ _ _ _ R).
    + apply mm_replace_none in R. contradiction.
  - rewrite mm_replace_fresh by exact Hn. apply map_app.
Qed.

Lemma spec_insert_nodup_length n e a v :
  NoDup (map fst e) -> length e <= n -> (mm_get e a <> None \/ length e < n) ->
  NoDup (map fst (spec_insert e a v)) /\ length (spec_insert e a v) <= n.
Proof.
  intros Hnd Hlen Hroom. rewrite <- (map_length fst (spec_insert e a v)), spec_insert_keys.
  destruct (in_dec label_eq_dec a (map fst e)) as [Hi|Hn].
  - rewrite map_length. split; assumption.
  - destruct Hroom as [H|H]; [apply mm_get_in_keys in H; contradiction|].
    rewrite app_length, map_length. split; [apply nodup_snoc; assumption|cbn; lia].
Qed.

Lemma op_kid_inv g v a k : op_kid g v a = Ok k -> k = mm_get (edg g v) a.
Proof.
  unfold op_kid. destruct (chk_v g v); cbn [obind]; try discriminate.
  intros H; injection H as <-. reflexivity.
Qed.

Lemma op_kid_present g v a : tag g v <> 0 -> op_kid g v a = Ok (mm_get (edg g v) a).
Proof. intros H. unfold op_kid. rewrite chk_v_ok by (apply tag_nonzero_lt; exact H). reflexivity. Qed.

Lemma op_kids_present g v : tag g v <> 0 -> op_kids g v = Ok (edg g v).
Proof. intros H. unfold op_kids. rewrite chk_v_ok by (apply tag_nonzero_lt; exact H). reflexivity. Qed.

Lemma first_empty_spec g b :
  first_empty g = Some b ->
  b < nb g /\ members g b = [] /\ forall c, c < b -> members g c <> [].
Proof.
  unfold first_empty, nb, members. intros H.
  destruct (find_index_some isnil (g_branches g) (@nil nat) H) as (H1 & H2 & H3).
  repeat split; auto.
  - destruct (nth b (g_branches g) []); [reflexivity|discriminate].
  - intros c Hc E. specialize (H3 c Hc). rewrite E in H3. discriminate.
Qed.

Lemma first_empty_none g b : first_empty g = None -> b < nb g -> members g b <> [].
Proof.
  intros F Hb E. pose proof (find_index_none isnil (g_branches g) [] F Hb) as Q.
  fold (members g b) in Q. rewrite E in Q. discriminate.
Qed.

(** ** bind *)

(** the group bookkeeping of [bind]; [g] is the state before the edge is
    written and [g1] the state after: by the tags of the two ends either
    nothing more happens, or one end joins the group of the other, or the first
    end opens the first empty slot and the second joins it *)
Definition bind_groups (g g1 : sodg) (v1 v2 : nat) : outcome sodg :=
  let k1 := b2n (is_stored g v1) in
  let k2 := b2n (is_stored g v2) in
  if tag g v1 =? 1 then
    if tag g v2 =? 1 then
      match first_empty g with
      | Some b => join_group (set_tag (set_members g1 b [v1]) v1 b) b v2 (k1 + k2)
      | None => join_group g1 (tag g v1) v2 (k1 + k2)
      end
    else join_group g1 (tag g v2) v1 k1
  else if tag g v2 =? 1 then join_group g1 (tag g v1) v2 k2 else Ok g1.

Lemma op_bind_nf n g v1 v2 a :
  op_bind n g v1 v2 a =
  _ <- chk_v g v1 ;; _ <- chk_v g v2 ;; e' <- mm_insert n (edg g v1) a v2 ;;
  bind_groups g (set_edges g v1 e') v1 v2.
Proof.
  unfold op_bind, bind_groups, join_group, BRANCH_STATIC.
  destruct (chk_v g v1), (chk_v g v2), (mm_insert n (edg g v1) a v2) as [e'| | |];
    cbn [obind]; try reflexivity.
  rewrite tag_set_edges. change (first_empty (set_edges g v1 e')) with (first_empty g).
  destruct (tag g v1 =? 1), (tag g v2 =? 1), (first_empty g); reflexivity.
Qed.

Lemma op_bind_groups n g v1 v2 a :
  v1 < cap_of g -> v2 < cap_of g ->
  (mm_get (edg g v1) a <> None \/ length (edg g v1) < n) ->
  op_bind n g v1 v2 a = bind_groups g (set_edges g v1 (spec_insert (edg g v1) a v2)) v1 v2.
Proof.
  intros H1 H2 He. rewrite op_bind_nf, !chk_v_ok, mm_insert_ok by assumption. reflexivity.
Qed.

Lemma bind_uu n g v1 v2 a b :
  v1 < cap_of g -> v2 < cap_of g -> nb g = 16 -> ns g = 16 ->
  tag g v1 = 1 -> tag g v2 = 1 ->
  (mm_get (edg g v1) a <> None \/ length (edg g v1) < n) ->
  first_empty g = Some b ->
  exists g', op_bind n g v1 v2 a = Ok g'
    /\ (forall w, tag g' w = if (w =? v1) || (w =? v2) then b else tag g w)
    /\ (forall w, prs g' w = prs g w) /\ (forall w, dat g' w = dat g w)
    /\ (forall w, edg g' w = if w =? v1 then spec_insert (edg g v1) a v2 else edg g w)
    /\ (forall c, members g' c = if c =? b then [v1; v2] else members g c)
    /\ (forall c, store g' c =
                  if c =? b then store g b + (b2n (is_stored g v1) + b2n (is_stored g v2))
                  else store g c)
    /\ same_except_vertices g g'.
Proof.
  intros H1 H2 Hnb Hns T1 T2 He Hf.
  destruct (first_empty_spec g b Hf) as (Hb & Hmb & _).
  rewrite op_bind_groups by assumption. unfold bind_groups. rewrite T1, T2, Hf. cbn [Nat.eqb].
  set (e := spec_insert (edg g v1) a v2).
  set (g2 := set_tag (set_members (set_edges g v1 e) b [v1]) v1 b).
  assert (X2 : same_except_vertices g g2) by apply sev_vtx, sev_members, sev_vtx, sev_refl.
  assert (M2 : forall c, members g2 c = if c =? b then [v1] else members g c).
  { intros c. unfold g2. rewrite members_set_tag, members_set_members. apply if_hit, Hb. }
  destruct (join_group_effect g2 b v2 (b2n (is_stored g v1) + b2n (is_stored g v2)))
    as (g' & J & T & P & D & E & M & S & X).
  { rewrite (se_cap _ _ X2). exact H2. }
  { rewrite (se_nb _ _ X2). exact Hb. }
  { rewrite (se_ns _ _ X2). lia. }
  { rewrite M2, Nat.eqb_refl. cbn; lia. }
  exists g'. repeat apply conj.
  - exact J.
  - intros w. rewrite T. unfold g2.
    rewrite tag_set_tag, if_hit, tag_set_members, tag_set_edges by (rewrite cap_set_members, cap_set_edges; exact H1).
    destruct (w =? v1), (w =? v2); reflexivity.
  - intros w. rewrite P. unfold g2. rewrite prs_set_tag. apply prs_set_edges.
  - intros w. rewrite D. unfold g2. rewrite dat_set_tag. apply dat_set_edges.
  - intros w. rewrite E. unfold g2. rewrite edg_set_tag, edg_set_members, edg_set_edges.
    apply if_hit, H1.
  - intros c. rewrite M, M2. destruct (c =? b); reflexivity.
  - intros c. rewrite S. destruct (Nat.eqb_spec c b) as [->|]; reflexivity.
  - exact (sev_trans X2 X).
Qed.

Lemma bind_ug n g v1 v2 a :
  v1 < cap_of g -> v2 < cap_of g ->
  tag g v1 = 1 -> tag g v2 <> 1 -> tag g v2 < nb g -> tag g v2 < ns g ->
  (mm_get (edg g v1) a <> None \/ length (edg g v1) < n) ->
  length (members g (tag g v2)) < 16 ->
  exists g', op_bind n g v1 v2 a = Ok g'
    /\ (forall w, tag g' w = if w =? v1 then tag g v2 else tag g w)
    /\ (forall w, prs g' w = prs g w) /\ (forall w, dat g' w = dat g w)
    /\ (forall w, edg g' w = if w =? v1 then spec_insert (edg g v1) a v2 else edg g w)
    /\ (forall c, members g' c = if c =? tag g v2 then members g c ++ [v1] else members g c)
    /\ (forall c, store g' c = if c =? tag g v2 then store g c + b2n (is_stored g v1) else store g c)
    /\ same_except_vertices g g'.
Proof.
  intros H1 H2 T1 T2 Hnb Hns He Hlen. apply Nat.eqb_neq in T2.
  rewrite op_bind_groups by assumption. unfold bind_groups. rewrite T1, T2.
  apply join_after_edges; assumption.
Qed.

Lemma bind_gu n g v1 v2 a :
  v1 < cap_of g -> v2 < cap_of g ->
  tag g v1 <> 1 -> tag g v2 = 1 -> tag g v1 < nb g -> tag g v1 < ns g ->
  (mm_get (edg g v1) a <> None \/ length (edg g v1) < n) ->
  length (members g (tag g v1)) < 16 ->
  exists g', op_bind n g v1 v2 a = Ok g'
    /\ (forall w, tag g' w = if w =? v2 then tag g v1 else tag g w)
    /\ (forall w, prs g' w = prs g w) /\ (forall w, dat g' w = dat g w)
    /\ (forall w, edg g' w = if w =? v1 then spec_insert (edg g v1) a v2 else edg g w)
    /\ (forall c, members g' c = if c =? tag g v1 then members g c ++ [v2] else members g c)
    /\ (forall c, store g' c = if c =? tag g v1 then store g c + b2n (is_stored g v2) else store g c)
    /\ same_except_vertices g g'.
Proof.
  intros H1 H2 T1 T2 Hnb Hns He Hlen. apply Nat.eqb_neq in T1.
  rewrite op_bind_groups by assumption. unfold bind_groups. rewrite T1, T2.
  apply join_after_edges; assumption.
Qed.

Lemma bind_gg n g v1 v2 a :
  v1 < cap_of g -> v2 < cap_of g ->
  tag g v1 <> 1 -> tag g v2 <> 1 ->
  (mm_get (edg g v1) a <> None \/ length (edg g v1) < n) ->
  exists g', op_bind n g v1 v2 a = Ok g'
    /\ (forall w, tag g' w = tag g w)
    /\ (forall w, prs g' w = prs g w) /\ (forall w, dat g' w = dat g w)
    /\ (forall w, edg g' w = if w =? v1 then spec_insert (edg g v1) a v2 else edg g w)
    /\ (forall c, members g' c = members g c)
    /\ (forall c, store g' c = store g c)
    /\ same_except_vertices g g'.
Proof.
  intros H1 H2 T1 T2 He. apply Nat.eqb_neq in T1, T2.
  rewrite op_bind_groups by assumption. unfold bind_groups. rewrite T1, T2.
  eexists. split; [reflexivity|]. repeat apply conj; try reflexivity.
  - intros w. apply tag_set_edges.
  - intros w. apply prs_set_edges.
  - intros w. apply dat_set_edges.
  - intros w. rewrite edg_set_edges. apply if_hit, H1.
  - apply sev_vtx, sev_refl.
Qed.

(** ** put *)

Lemma put_effect g v d :
  v < cap_of g -> tag g v < nb g -> tag g v < ns g ->
  exists g', op_put g v d = Ok g'
    /\ (forall w, tag g' w = tag g w)
    /\ (forall w, prs g' w = if w =? v then PStored else prs g w)
    /\ (forall w, dat g' w = if w =? v then d else dat g w)
    /\ (forall w, edg g' w = edg g w)
    /\ (forall c, members g' c = members g c)
    /\ (forall c, store g' c =
                  if (c =? tag g v) && (negb (is_stored g v) && negb (tag g v =? 1))
                  then store g c + 1 else store g c)
    /\ same_except_vertices g g'.
Proof.
  intros Hv Hb Hs. unfold op_put. rewrite chk_v_ok by exact Hv. cbn [obind].
  change (v_branch (vtx g v)) with (tag g v). change (pers_eqb (v_pers (vtx g v)) PStored) with (is_stored g v).
  unfold BRANCH_STATIC.
  set (g1 := set_vtx g v _). set (C := negb (is_stored g v) && negb (tag g v =? 1)).
  set (g' := if C then set_store g1 (tag g v) (store g1 (tag g v) + 1) else g1).
  assert (V : forall w, vtx g' w = vtx g1 w) by (intros w; unfold g'; destruct C; reflexivity).
  exists g'. repeat apply conj.
  - unfold g'. destruct C; [apply add_store_ok; assumption|reflexivity].
  - intros w. unfold tag. rewrite V. apply (proj_set_vtx_same v_branch). reflexivity.
  - intros w. unfold prs. rewrite V. apply (proj_set_vtx_in v_pers), Hv.
  - intros w. unfold dat. rewrite V. apply (proj_set_vtx_in v_data), Hv.
  - intros w. unfold edg. rewrite V. apply (proj_set_vtx_same v_edges). reflexivity.
  - intros c. unfold g'. destruct C; reflexivity.
  - intros c. unfold g'. destruct C; [|rewrite andb_false_r; reflexivity].
    rewrite andb_true_r, store_set_store, if_hit by exact Hs.
    destruct (Nat.eqb_spec c (tag g v)) as [->|]; reflexivity.
  - unfold g'. destruct C; [apply sev_store|]; apply sev_vtx, sev_refl.
Qed.

(** ** data *)

Lemma op_data_empty g v : v < cap_of g -> prs g v = PEmpty -> op_data g v = Ok (g, None).
Proof.
  intros Hv Hp. unfold op_data. rewrite chk_v_ok by exact Hv. cbn [obind].
  fold (prs g v). rewrite Hp. reflexivity.
Qed.

Lemma op_data_taken g v : v < cap_of g -> prs g v = PTaken -> op_data g v = Ok (g, Some (dat g v)).
Proof.
  intros Hv Hp. unfold op_data. rewrite chk_v_ok by exact Hv. cbn [obind].
  fold (prs g v). rewrite Hp. reflexivity.
Qed.

Lemma op_data_stored_static g v :
  v < cap_of g -> prs g v = PStored -> tag g v = 1 ->
  op_data g v = Ok (set_prs g v PTaken, Some (dat g v)).
Proof.
  intros Hv Hp Ht. unfold op_data. rewrite chk_v_ok by exact Hv. cbn [obind].
  fold (prs g v). rewrite Hp. fold (tag g v). rewrite Ht. reflexivity.
Qed.

Lemma op_data_stored_keep g v :
  v < cap_of g -> prs g v = PStored -> tag g v <> 1 -> tag g v < nb g -> tag g v < ns g ->
  2 <= store g (tag g v) ->
  op_data g v = Ok (set_store (set_prs g v PTaken) (tag g v) (store g (tag g v) - 1), Some (dat g v)).
Proof.
  intros Hv Hp Ht Hb Hs Hc. unfold op_data. rewrite chk_v_ok by exact Hv. cbn [obind].
  fold (prs g v). rewrite Hp. fold (tag g v). fold (dat g v).
  apply Nat.eqb_neq in Ht. unfold BRANCH_STATIC. rewrite Ht.
  rewrite chk_b_ok by assumption. cbn [obind]. rewrite store_set_prs.
  destruct (Nat.eqb_spec (store g (tag g v)) 0); [lia|].
  destruct (Nat.eqb_spec (store g (tag g v) - 1) 0); [lia|]. reflexivity.
Qed.

Lemma op_data_stored_last g v :
  v < cap_of g -> prs g v = PStored -> tag g v <> 1 -> tag g v < nb g -> tag g v < ns g ->
  store g (tag g v) = 1 ->
  (forall m, In m (members g (tag g v)) -> m < cap_of g) ->
  exists g', op_data g v = Ok (g', Some (dat g v))
    /\ (forall w, tag g' w = if mem w (members g (tag g v)) then 0 else tag g w)
    /\ (forall w, prs g' w = if w =? v then PTaken else prs g w)
    /\ (forall w, dat g' w = dat g w) /\ (forall w, edg g' w = edg g w)
    /\ (forall c, members g' c = if c =? tag g v then [] else members g c)
    /\ (forall c, store g' c = if c =? tag g v then 0 else store g c)
    /\ same_except_vertices g g'.
Proof.
  intros Hv Hp Ht Hb Hs Hc Hms. unfold op_data. rewrite chk_v_ok by exact Hv. cbn [obind].
  fold (prs g v). rewrite Hp. fold (tag g v). fold (dat g v).
  apply Nat.eqb_neq in Ht. unfold BRANCH_STATIC. rewrite Ht.
  rewrite chk_b_ok by assumption. cbn [obind]. rewrite store_set_prs, Hc. cbn [Nat.eqb Nat.sub].
  set (b := tag g v) in *.
  set (g2 := set_store (set_prs g v PTaken) b 0).
  assert (X2 : same_except_vertices g g2) by apply sev_store, sev_vtx, sev_refl.
  destruct (kill_ok (members g b) g2) as (g3 & K & T & P & D & E & M & S & X).
  { intros m Hm. rewrite (se_cap _ _ X2). apply Hms; exact Hm. }
  change (members g2 b) with (members g b). rewrite K. cbn [obind].
  eexists. split; [reflexivity|]. repeat apply conj.
  - intros w. rewrite tag_set_members, T. unfold g2. rewrite tag_set_store, tag_set_prs. reflexivity.
  - intros w. rewrite prs_set_members, P. unfold g2. rewrite prs_set_store. apply prs_set_prs_in, Hv.
  - intros w. rewrite dat_set_members, D. unfold g2. rewrite dat_set_store. apply dat_set_prs.
  - intros w. rewrite edg_set_members, E. unfold g2. rewrite edg_set_store. apply edg_set_prs.
  - intros c. rewrite members_set_members, if_hit, M by (rewrite (se_nb _ _ X); exact Hb). reflexivity.
  - intros c. rewrite store_set_members, S. unfold g2. rewrite store_set_store, store_set_prs.
    apply if_hit, Hs.
  - apply (sev_trans X2), sev_members, X.
Qed.

(** ** next_id *)

(** [id] is the least absent id from the allocator position on, and the
    position always moves: the [else] branch of [op_next_id] is never taken *)
Lemma op_next_id_inv g g' id :
  op_next_id g = Ok (g', id) ->
  g' = set_next g (S id) /\ g_next g <= id /\ id < cap_of g /\ tag g id = 0
  /\ (forall w, g_next g <= w -> w < id -> tag g w <> 0).
Proof.
  unfold op_next_id. destruct (find _ _) as [x|] eqn:F; [|discriminate].
  intros H. injection H as <- <-.
  pose proof (find_some _ _ F) as [Hin Hp]. apply in_seq in Hin.
  apply andb_true_iff in Hp as [Hp1 Hp2]. apply Nat.eqb_eq in Hp1. apply Nat.leb_le in Hp2.
  repeat apply conj; try lia; try assumption.
  - replace (x + 1) with (S x) by lia.
    destruct (Nat.ltb_spec (g_next g) (S x)); [reflexivity|lia].
  - intros w Hw1 Hw2 Hw3.
    pose proof (find_seq_least _ _ _ _ F w (Nat.le_0_l w) Hw2) as Q.
    cbn beta in Q. apply Nat.eqb_eq in Hw3. apply Nat.leb_le in Hw1. rewrite Hw3, Hw1 in Q. discriminate.
Qed.

Lemma next_id_effect g :
  (exists id, g_next g <= id /\ id < cap_of g /\ tag g id = 0) ->
  exists id, op_next_id g = Ok (set_next g (S id), id)
    /\ g_next g <= id /\ id < cap_of g /\ tag g id = 0
    /\ (forall w, g_next g <= w -> w < id -> tag g w <> 0).
Proof.
  intros (x & Hx1 & Hx2 & Hx3).
  assert (F : exists r, op_next_id g = Ok r).
  { unfold op_next_id. destruct (find _ _) eqn:F; [eauto|]. exfalso.
    apply find_none with (x := x) in F; [|apply in_seq; lia].
    cbn beta in F. apply Nat.eqb_eq in Hx3. apply Nat.leb_le in Hx1. rewrite Hx3, Hx1 in F. discriminate. }
  destruct F as ([g' id] & F). destruct (op_next_id_inv g g' id F) as (-> & H).
  exists id. split; assumption.
Qed.

(** ** add *)

Lemma op_add_eq g v :
  v < cap_of g ->
  op_add g v = Ok (if tag g v =? 0 then set_vtx g v (mkV 1 hex_empty PEmpty []) else g).
Proof.
  intros Hv. unfold op_add. rewrite chk_v_ok by exact Hv. cbn [obind].
  unfold BRANCH_NONE. destruct (tag g v =? 0); reflexivity.
Qed.

Lemma add_effect g v :
  v < cap_of g ->
  exists g', op_add g v = Ok g'
    /\ (forall w, tag g' w = if (w =? v) && (tag g v =? 0) then 1 else tag g w)
    /\ (forall w, prs g' w = if (w =? v) && (tag g v =? 0) then PEmpty else prs g w)
    /\ (forall w, dat g' w = if (w =? v) && (tag g v =? 0) then hex_empty else dat g w)
    /\ (forall w, edg g' w = if (w =? v) && (tag g v =? 0) then [] else edg g w)
    /\ (forall c, members g' c = members g c) /\ (forall c, store g' c = store g c)
    /\ same_except_vertices g g'.
Proof.
  intros Hv. rewrite op_add_eq by exact Hv. eexists. split; [reflexivity|].
  destruct (tag g v =? 0); repeat apply conj;
    try (intros w; rewrite ?andb_true_r, ?andb_false_r); try reflexivity.
  - apply (proj_set_vtx_in v_branch), Hv.
  - apply (proj_set_vtx_in v_pers), Hv.
  - apply (proj_set_vtx_in v_data), Hv.
  - apply (proj_set_vtx_in v_edges), Hv.
  - apply sev_vtx, sev_refl.
  - apply sev_refl.
Qed.

(** ** neither [OutOfFuel] nor [Unmodelled] *)

Definition fine {A} (x : outcome A) : Prop :=
  match x with Ok _ => True | Panic _ => True | _ => False end.

Lemma fine_fuel {A} (x : outcome A) : fine x -> x <> OutOfFuel.
Proof. intros F E. rewrite E in F. exact F. Qed.

Lemma fine_obind {A B} (x : outcome A) (f : A -> outcome B) :
  fine x -> (forall a, fine (f a)) -> fine (obind x f).
Proof. destruct x; cbn [obind fine]; auto. Qed.

Lemma fine_chk_v g v : fine (chk_v g v).
Proof. unfold chk_v. destruct (v <? cap_of g); exact I. Qed.

Lemma fine_chk_b g b : fine (chk_b g b).
Proof. unfold chk_b. destruct ((b <? length (g_branches g)) && (b <? length (g_stores g))); exact I. Qed.

Lemma fine_push_member g b v : fine (push_member g b v).
Proof.
  unfold push_member. apply fine_obind; [apply fine_chk_b|]. intros _.
  destruct (length (members g b) <? MAX_BRANCH_SIZE); exact I.
Qed.

Lemma fine_add_store g b k : fine (add_store g b k).
Proof. unfold add_store. apply fine_obind; [apply fine_chk_b|]. intros _. exact I. Qed.

Lemma fine_mm_insert k e a v : fine (mm_insert k e a v).
Proof.
  unfold mm_insert. destruct (mm_replace e a v); [exact I|].
  destruct (length e <? k); exact I.
Qed.

Lemma fine_kid g v a : fine (op_kid g v a).
Proof. unfold op_kid. apply fine_obind; [apply fine_chk_v|]. intros _. exact I. Qed.

Lemma fine_add g v : fine (op_add g v).
Proof.
  unfold op_add. apply fine_obind; [apply fine_chk_v|]. intros _.
  destruct (tag g v =? BRANCH_NONE); exact I.
Qed.

Lemma fine_put g v d : fine (op_put g v d).
Proof.
  unfold op_put. apply fine_obind; [apply fine_chk_v|]. intros _. cbv zeta.
  destruct (_ && _); [apply fine_add_store | exact I].
Qed.

Lemma fine_next_id g : fine (op_next_id g).
Proof. unfold op_next_id. destruct (find _ _); exact I. Qed.

Lemma fine_join_group g t x k : fine (join_group g t x k).
Proof. apply fine_obind; [apply fine_push_member | intros g'; apply fine_add_store]. Qed.

Lemma fine_bind n g v1 v2 a : fine (op_bind n g v1 v2 a).
Proof.
  rewrite op_bind_nf. do 2 (apply fine_obind; [apply fine_chk_v|]; intros _).
  apply fine_obind; [apply fine_mm_insert|]. intros e'. unfold bind_groups.
  destruct (_ =? 1), (_ =? 1); [destruct (first_empty g)|..]; try apply fine_join_group. exact I.
Qed.
