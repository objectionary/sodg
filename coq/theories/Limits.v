(** * Limits: the independence of the answers from the two size parameters
    (C19), and what happens at and beyond the capacity limits (C07). *)

From Sodg Require Export HistoryThms.

(** ** C19: the reference model never looks at N or the capacity *)

Lemma pre_mono n1 n2 cap1 cap2 s o :
  n1 <= n2 -> cap1 <= cap2 -> pre n1 cap1 s o -> pre n2 cap2 s o.
Proof.
  intros Hn Hc. destruct o as [v|v1 v2 a|v d|v| |v a|v|]; cbn [pre]; auto.
  - lia.
  - intros (A & B & C & D & E). repeat split; auto. destruct D as [D|D]; [left; exact D|right; lia].
  - intros (id & A & B & C). exists id. repeat split; auto. lia.
Qed.

Lemma within_limits_mono n1 n2 cap1 cap2 : n1 <= n2 -> cap1 <= cap2 ->
  forall os s, within_limits n1 cap1 s os -> within_limits n2 cap2 s os.
Proof.
  intros Hn Hc. induction os as [|o t IH]; intros s; cbn [within_limits]; [auto|].
  intros [A B]. split; [eapply pre_mono; eauto|apply IH; exact B].
Qed.

Theorem config_independent n1 cap1 n2 cap2 os :
  within_limits n1 cap1 sinit os -> within_limits n2 cap2 sinit os ->
  exists g1 g2 rs,
    run n1 (op_empty cap1) os = Ok (g1, rs) /\ run n2 (op_empty cap2) os = Ok (g2, rs)
    /\ op_keys g1 = op_keys g2
    /\ (forall v, present g1 v = true ->
          edg g1 v = edg g2 v /\ prs g1 v = prs g2 v /\ (prs g1 v <> PEmpty -> dat g1 v = dat g2 v)).
Proof.
  intros H1 H2.
  destruct (sim_run_empty n1 cap1 os H1) as (g1 & A1 & I1 & R1 & C1).
  destruct (sim_run_empty n2 cap2 os H2) as (g2 & A2 & I2 & R2 & C2).
  exists g1, g2, (snd (srun sinit os)). split; [exact A1|]. split; [exact A2|].
  split; [rewrite <- (keys_agree _ _ R1), <- (keys_agree _ _ R2); reflexivity|].
  intros v Pv. set (s := fst (srun sinit os)) in *.
  assert (Ps : s_present s v = true) by (rewrite (r_pres R1); exact Pv).
  split; [rewrite <- (r_edges R1 v Ps), <- (r_edges R2 v Ps); reflexivity|].
  (* both are read off the reference state *)
  assert (P : prs g1 v = prs g2 v).
  { rewrite (prs_result g1 s v R1 Ps), (prs_result g2 s v R2 Ps). reflexivity. }
  split; [exact P|]. intros Hne.
  pose proof (data_result g1 s v R1 Ps) as D. rewrite (data_result g2 s v R2 Ps), <- P in D.
  destruct (prs g1 v); congruence.
Qed.

Corollary config_larger n1 cap1 n2 cap2 os :
  n1 <= n2 -> cap1 <= cap2 -> within_limits n1 cap1 sinit os ->
  exists g1 g2 rs,
    run n1 (op_empty cap1) os = Ok (g1, rs) /\ run n2 (op_empty cap2) os = Ok (g2, rs)
    /\ op_keys g1 = op_keys g2.
Proof.
  intros Hn Hc H1. pose proof (within_limits_mono n1 n2 cap1 cap2 Hn Hc os sinit H1) as H2.
  destruct (config_independent n1 cap1 n2 cap2 os H1 H2) as (g1 & g2 & rs & A & B & C & _).
  exists g1, g2, rs. auto.
Qed.

Lemma replay_deterministic n g os r1 r2 : run n g os = r1 -> run n g os = r2 -> r1 = r2.
Proof. congruence. Qed.

(** ** C07: each overrun ends in the panic of the container whose bound it exceeds *)

(** the (N+1)-th distinct label on a vertex *)
Lemma bind_label_overflow n g v1 v2 a :
  v1 < cap_of g -> v2 < cap_of g -> mm_get (edg g v1) a = None -> n <= length (edg g v1) ->
  op_bind n g v1 v2 a = Panic PMapFull.
Proof.
  intros L1 L2 Hg Hl. unfold op_bind. rewrite !chk_v_ok by assumption. cbn [obind].
  unfold mm_insert. rewrite (proj2 (mm_replace_none _ _ _) Hg).
  destruct (Nat.ltb_spec (length (edg g v1)) n); [lia|]. reflexivity.
Qed.

(** the 17th member of a group *)
Lemma join_group_full g t x k :
  t < nb g -> t < ns g -> length (members g t) = 16 ->
  join_group g t x k = Panic PStackFull.
Proof.
  intros Hb Hs Hl. unfold join_group, push_member.
  rewrite chk_b_ok by (rewrite ?nb_set_tag, ?ns_set_tag; assumption). cbn [obind].
  rewrite members_set_tag, Hl. reflexivity.
Qed.

(** ... which [bind] attempts for an ungrouped vertex bound to a member of a full group *)
Lemma bind_group_overflow n g v1 v2 a :
  Inv n g -> tag g v1 <> 0 -> tag g v2 <> 0 -> room n g v1 a ->
  ((tag g v1 = 1 /\ 2 <= tag g v2 /\ length (members g (tag g v2)) = 16)
   \/ (2 <= tag g v1 /\ tag g v2 = 1 /\ length (members g (tag g v1)) = 16)) ->
  op_bind n g v1 v2 a = Panic PStackFull.
Proof.
  intros HI T1 T2 Hr Hfull.
  rewrite op_bind_groups by (try apply tag_nonzero_lt; assumption). unfold bind_groups.
  destruct Hfull as [(E1 & G2 & Hl)|(G1 & E2 & Hl)].
  - rewrite E1. destruct (Nat.eqb_spec (tag g v2) 1); [lia|].
    apply join_group_full; [exact (inv_tag_nb n g v2 HI)|exact (inv_tag_ns n g v2 HI)|exact Hl].
  - rewrite E2. destruct (Nat.eqb_spec (tag g v1) 1); [lia|].
    apply join_group_full; [exact (inv_tag_nb n g v1 HI)|exact (inv_tag_ns n g v1 HI)|exact Hl].
Qed.

(** the first thing every call evaluates is the bound check on its vertex
    argument(s): a [Panic PBoundary] is decided before any slot is read *)
Lemma step_boundary_first n g o :
  match o with
  | OAdd v | OPut v _ | OData v | OKid v _ | OKids v => cap_of g <= v
  | OBind v1 v2 _ => cap_of g <= v1 \/ cap_of g <= v2
  | _ => False
  end -> step n g o = Panic PBoundary.
Proof.
  destruct o as [v|v1 v2 a|v d|v| |v a|v|]; cbn [step]; intros H.
  - unfold op_add. rewrite chk_v_panic by exact H. reflexivity.
  - unfold op_bind. destruct H as [H|H].
    + rewrite chk_v_panic by exact H. reflexivity.
    + rewrite (chk_v_panic g v2) by exact H. unfold chk_v. destruct (v1 <? cap_of g); reflexivity.
  - unfold op_put. rewrite chk_v_panic by exact H. reflexivity.
  - unfold op_data. rewrite chk_v_panic by exact H. reflexivity.
  - destruct H.
  - unfold op_kid. rewrite chk_v_panic by exact H. reflexivity.
  - unfold op_kids. rewrite chk_v_panic by exact H. reflexivity.
  - destruct H.
Qed.

Lemma bounds_discipline n g :
  Inv n g ->
  (forall v, tag g v < nb g /\ tag g v < ns g)
  /\ (forall b m, 2 <= b -> b < 16 -> In m (members g b) -> m < cap_of g)
  /\ (forall b, 2 <= b -> b < 16 -> length (members g b) <= 16)
  /\ (forall v, length (edg g v) <= n)
  /\ g_next g <= cap_of g.
Proof.
  intros HI. split; [|split; [|split; [|split]]].
  - intros v. eauto using inv_tag_nb, inv_tag_ns.
  - intros b m H1 H2 Hm. apply (i_mem HI b m H1 H2) in Hm. apply tag_nonzero_lt. lia.
  - intros b H1 H2. apply (i_len HI b H1 H2).
  - intros v. apply (i_edges HI v).
  - apply (i_next HI).
Qed.
