(** * MergePresent: every image recorded in the [mapped] table of [merge] is a
    present vertex of the left graph after the merge, provided the left graph
    has no dangling edge ([lclosed]); without that the conclusion fails on the
    model ([merge_dangling_image_absent]).

    Of [Inv] only [members s 0 <> []] is used (group slot 0 holds its sentinel,
    so [bind] never hands out 0 as a group number, i.e. never writes the tag
    "absent" on a vertex), and [merge_present_gen] is stated with that: [Inv]
    itself is not preserved by the calls merge makes, since a right graph with
    a loop makes merge call [bind(left, left, a)] ([merge_self_bind]). *)

From Sodg Require Import MergeFacts Shape.
From Sodg Require History.

Definition lclosed (s : sodg) : Prop :=
  forall u a w, u < cap_of s -> tag s u <> 0 -> In (a, w) (edg s u) ->
                w < cap_of s /\ tag s w <> 0.

(** ** what the four calls do to presence, edges and the sentinel of slot 0,
    read off a successful call (no precondition beyond presence) *)

Lemma put_facts g v d g' :
  op_put g v d = Ok g' ->
  cap_of g' = cap_of g /\ members g' 0 = members g 0
  /\ (forall w, tag g' w = tag g w) /\ (forall w, edg g' w = edg g w).
Proof.
  intros H. unfold op_put in H. apply obind_ok in H as ([] & C & H). apply chk_v_inv in C.
  set (g1 := set_vtx g v _) in H.
  assert (A : cap_of g1 = cap_of g /\ members g1 0 = members g 0
              /\ (forall w, tag g1 w = tag g w) /\ (forall w, edg g1 w = edg g w)).
  { unfold g1. split; [apply cap_set_vtx|]. split; [reflexivity|].
    split; intros w; [apply (proj_set_vtx_same v_branch)|apply (proj_set_vtx_same v_edges)];
      reflexivity. }
  destruct (_ && _); [apply add_store_inv in H; subst g'|injection H as <-]; exact A.
Qed.

Lemma next_id_facts g g' id :
  op_next_id g = Ok (g', id) ->
  id < cap_of g /\ tag g id = 0
  /\ cap_of g' = cap_of g /\ members g' 0 = members g 0
  /\ (forall w, tag g' w = tag g w) /\ (forall w, edg g' w = edg g w).
Proof.
  intros H. apply op_next_id_inv in H as (-> & _ & L & Z & _).
  split; [exact L|]. split; [exact Z|]. repeat split; reflexivity.
Qed.

Lemma add_facts g v g' :
  op_add g v = Ok g' -> tag g v = 0 ->
  v < cap_of g /\ cap_of g' = cap_of g /\ members g' 0 = members g 0
  /\ (forall w, tag g' w = if w =? v then 1 else tag g w)
  /\ (forall w, edg g' w = if w =? v then [] else edg g w).
Proof.
  intros H Z. assert (Hv : v < cap_of g).
  { unfold op_add in H. apply obind_ok in H as ([] & C & _). exact (chk_v_inv _ _ C). }
  destruct (add_effect g v Hv) as (g1 & A & T & _ & _ & E & M & _ & X).
  rewrite A in H. injection H as <-.
  split; [exact Hv|]. split; [exact (se_cap _ _ X)|]. split; [apply M|].
  split; intros w; [rewrite T|rewrite E]; rewrite Z; cbn [Nat.eqb]; rewrite andb_true_r; reflexivity.
Qed.

(** [g'] differs from [g] in the group bookkeeping only: the same edges, the
    same present vertices, the sentinel of group slot 0 untouched.  The
    lemmas below extend a chain [regrouped g g2] by one more step of [bind]. *)
Definition regrouped (g g' : sodg) : Prop :=
  members g' 0 = members g 0
  /\ (forall w, tag g' w = 0 <-> tag g w = 0)
  /\ (forall w, edg g' w = edg g w).

Lemma regrouped_refl g : regrouped g g.
Proof. split; [|split]; reflexivity. Qed.

Lemma regrouped_set_tag g g2 v b :
  regrouped g g2 -> b <> 0 -> tag g v <> 0 -> regrouped g (set_tag g2 v b).
Proof.
  intros (M & T & E) Hb Hv. split; [exact M|]. split; intros w; [|rewrite edg_set_tag; apply E].
  rewrite tag_set_tag. destruct (Nat.eqb_spec v w) as [<-|]; [|apply T].
  destruct (v <? cap_of g2); [tauto|apply T].
Qed.

Lemma regrouped_set_members g g2 b m : regrouped g g2 -> b <> 0 -> regrouped g (set_members g2 b m).
Proof.
  intros (M & T & E) Hb. split; [|split; assumption].
  rewrite members_set_members. destruct (Nat.eqb_spec b 0); [contradiction|exact M].
Qed.

(** a present vertex [x] joins a group other than 0 *)
Lemma regrouped_join g g2 t x k g' :
  regrouped g g2 -> t <> 0 -> tag g x <> 0 -> join_group g2 t x k = Ok g' -> regrouped g g'.
Proof.
  intros R Ht Hx H. apply obind_ok in H as (g3 & P & H).
  apply push_member_inv in P. apply add_store_inv in H. subst g' g3.
  (* [set_store] touches none of the three components *)
  exact (regrouped_set_members g _ t _ (regrouped_set_tag g g2 x t R Ht Hx) Ht).
Qed.

(** [bind] between two present vertices (possibly the same one) *)
Lemma bind_facts n g v1 v2 a g' :
  op_bind n g v1 v2 a = Ok g' ->
  members g 0 <> [] -> tag g v1 <> 0 -> tag g v2 <> 0 ->
  cap_of g' = cap_of g /\ members g' 0 = members g 0
  /\ (forall w, tag g' w = 0 <-> tag g w = 0)
  /\ exists e', (forall b x, In (b, x) e' -> In (b, x) (edg g v1) \/ x = v2)
                /\ forall w, edg g' w = if w =? v1 then e' else edg g w.
Proof.
  intros H M0 T1 T2.
  pose proof (tag_nonzero_lt g v1 T1) as L1. pose proof (tag_nonzero_lt g v2 T2) as L2.
  split; [apply (op_bind_shape n g v1 v2 a g' H)|].
  rewrite op_bind_nf, !chk_v_ok in H by assumption. cbn [obind] in H.
  apply obind_ok in H as (e' & I & H).
  (* after the new edge list of [v1] is in place, [bind] only moves [v1], [v2]
     between groups, none of which is group 0 *)
  set (g1 := set_edges g v1 e') in H.
  assert (P1 : tag g1 v1 <> 0) by (unfold g1; rewrite tag_set_edges; exact T1).
  assert (P2 : tag g1 v2 <> 0) by (unfold g1; rewrite tag_set_edges; exact T2).
  assert (R : regrouped g1 g').
  { revert H. unfold bind_groups.
    destruct (tag g v1 =? 1), (tag g v2 =? 1); [destruct (first_empty g) as [b|] eqn:F|..].
    - assert (Hb : b <> 0) by (intros ->; apply M0, (first_empty_spec _ _ F)).
      apply regrouped_join; [|exact Hb|exact P2]. apply regrouped_set_tag; [|exact Hb|exact P1].
      apply regrouped_set_members; [apply regrouped_refl|exact Hb].
    - apply regrouped_join; [apply regrouped_refl|exact T1|exact P2].
    - apply regrouped_join; [apply regrouped_refl|exact T2|exact P1].
    - apply regrouped_join; [apply regrouped_refl|exact T1|exact P2].
    - intros [= <-]. apply regrouped_refl. }
  destruct R as (M & T & E). split; [exact M|].
  split; [intros w; rewrite T; unfold g1; rewrite tag_set_edges; reflexivity|].
  exists e'. split; [intros b x Hi; destruct (mm_insert_in _ _ _ _ _ b x I Hi) as [Q|[_ Q]]; auto|].
  intros w. rewrite E. unfold g1. rewrite edg_set_edges, Nat.eqb_sym.
  apply Nat.ltb_lt in L1. rewrite L1, andb_true_r. reflexivity.
Qed.

(** the state relation every piece of [merge_rec] establishes *)
Record keeps (s s' : sodg) : Prop := {
  k_cap : cap_of s' = cap_of s;
  k_mono : forall u, tag s u <> 0 -> tag s' u <> 0;
  k_m0 : members s' 0 <> [];
  k_closed : lclosed s'
}.

Lemma keeps_refl s : members s 0 <> [] -> lclosed s -> keeps s s.
Proof. intros M C. split; auto. Qed.

Lemma keeps_trans a b c : keeps a b -> keeps b c -> keeps a c.
Proof.
  intros [A1 A2 A3 A4] [B1 B2 B3 B4]. split; auto. congruence.
Qed.

Lemma put_keeps g v d g' : op_put g v d = Ok g' -> members g 0 <> [] -> lclosed g -> keeps g g'.
Proof.
  intros H M0 HC. destruct (put_facts g v d g' H) as (C & M & T & E). split.
  - exact C.
  - intros u Hu. rewrite T. exact Hu.
  - rewrite M. exact M0.
  - intros u b w. rewrite C, !T, E. apply HC.
Qed.

Lemma bind_keeps n g v1 v2 a g' :
  op_bind n g v1 v2 a = Ok g' ->
  members g 0 <> [] -> tag g v1 <> 0 -> tag g v2 <> 0 -> lclosed g -> keeps g g'.
Proof.
  intros H M0 T1 T2 HC.
  destruct (bind_facts n g v1 v2 a g' H M0 T1 T2) as (C & M & T & e' & He & E).
  split; [exact C|intros u Hu; rewrite T; exact Hu|rewrite M; exact M0|].
  intros u b w Hu Ht Hi. rewrite C in *. rewrite T in Ht.
  assert (P : tag g w <> 0).
  { rewrite E in Hi. destruct (Nat.eqb_spec u v1) as [->|Hne].
    - destruct (He b w Hi) as [Q| ->]; [|exact T2]. apply (HC v1 b w Hu Ht Q).
    - apply (HC u b w Hu Ht Hi). }
  split; [apply tag_nonzero_lt; exact P|]. rewrite T. exact P.
Qed.

(** a fresh vertex: the id handed out by [next_id], added *)
Lemma fresh_keeps g g1 id g2 :
  op_next_id g = Ok (g1, id) -> op_add g1 id = Ok g2 -> members g 0 <> [] -> lclosed g ->
  keeps g g2 /\ tag g2 id <> 0.
Proof.
  intros Hn Ha M0 HC.
  destruct (next_id_facts g g1 id Hn) as (_ & Zi & C1 & M1 & T1 & E1).
  destruct (add_facts g1 id g2 Ha) as (_ & C2 & M2 & T2 & E2); [rewrite T1; exact Zi|].
  assert (T : forall w, tag g2 w = if w =? id then 1 else tag g w) by (intros w; rewrite T2, T1; reflexivity).
  split; [split|].
  - congruence.
  - intros u Hu. rewrite T. destruct (u =? id); [discriminate|exact Hu].
  - rewrite M2, M1. exact M0.
  - intros u b w Hu Ht Hi. rewrite C2, C1 in Hu |- *. rewrite E2 in Hi. rewrite T in Ht |- *.
    destruct (Nat.eqb_spec u id) as [->|Hne]; [destruct Hi|].
    rewrite E1 in Hi. destruct (HC u b w Hu Ht Hi) as [Lw Tw].
    split; [exact Lw|]. destruct (w =? id); [discriminate|exact Tw].
  - rewrite T, Nat.eqb_refl. discriminate.
Qed.

Lemma attach_keeps n s left a mt sa t :
  members s 0 <> [] -> lclosed s -> tag s left <> 0 ->
  (forall x, mt = Some x -> tag s x <> 0) ->
  attach n s left a (mm_get (edg s left) a) mt = Ok (sa, t) ->
  keeps s sa /\ tag sa t <> 0.
Proof.
  intros M0 HC TL Hmt H. unfold attach in H.
  destruct (mm_get (edg s left) a) as [k|] eqn:K.
  - injection H as <- <-. split; [apply keeps_refl; assumption|].
    apply mm_get_in in K. apply (HC left a k (tag_nonzero_lt _ _ TL) TL K).
  - destruct mt as [x|].
    + apply obind_ok in H as (s1 & Hb & H). injection H as <- <-.
      pose proof (Hmt x eq_refl) as Tx.
      pose proof (bind_keeps n s left x a s1 Hb M0 TL Tx HC) as K1.
      split; [exact K1|exact (k_mono _ _ K1 x Tx)].
    + apply obind_ok in H as ([s1 id] & Hn & H). cbn [fst snd] in H.
      apply obind_ok in H as (s2 & Ha & H). apply obind_ok in H as (s3 & Hb & H).
      injection H as <- <-.
      destruct (fresh_keeps s s1 id s2 Hn Ha M0 HC) as (K2 & Ti).
      pose proof (bind_keeps n s2 left id a s3 Hb (k_m0 _ _ K2) (k_mono _ _ K2 left TL) Ti
                    (k_closed _ _ K2)) as K3.
      split; [exact (keeps_trans _ _ _ K2 K3)|exact (k_mono _ _ K3 id Ti)].
Qed.

Definition imgs_present (s : sodg) (m : mapping) : Prop :=
  forall v w, In (v, w) m -> tag s w <> 0.

Lemma imgs_mono s s' m :
  (forall u, tag s u <> 0 -> tag s' u <> 0) -> imgs_present s m -> imgs_present s' m.
Proof. intros Hm Hi v w Hin. apply Hm. eapply Hi; eauto. Qed.

Definition rec_ok (n : nat) (h : sodg) (f : nat) : Prop :=
  forall s left right m s' m',
    members s 0 <> [] -> lclosed s -> tag s left <> 0 -> imgs_present s m ->
    merge_rec f n h s left right m = Ok (s', m') ->
    keeps s s' /\ imgs_present s' m'.

Lemma mgo_present n h f left :
  rec_ok n h f ->
  forall es s m s' m',
    members s 0 <> [] -> lclosed s -> tag s left <> 0 -> imgs_present s m ->
    mgo (merge_rec f n h) n left es s m = Ok (s', m') ->
    keeps s s' /\ imgs_present s' m'.
Proof.
  intros HR es. induction es as [|[a to] rest IH]; intros s m s' m' M0 HC TL HI H; cbn [mgo] in H.
  - injection H as <- <-. split; [apply keeps_refl; assumption|exact HI].
  - apply obind_ok in H as (k & Hk & H). apply op_kid_inv in Hk. subst k.
    apply obind_ok in H as ([sa t] & Hat & H). cbn [fst snd] in H.
    apply obind_ok in H as ([sb mb] & Hrec & H). cbn [fst snd] in H.
    destruct (attach_keeps n s left a (map_get m to) sa t M0 HC TL) with (2 := Hat) as (Ka & Ta).
    { intros x Hx. apply map_get_some_in in Hx. eapply HI; eauto. }
    destruct (HR sa t to m sb mb (k_m0 _ _ Ka) (k_closed _ _ Ka) Ta
                 (imgs_mono s sa m (k_mono _ _ Ka) HI) Hrec) as (Kb & Ib).
    assert (Kab : keeps s sb) by (eapply keeps_trans; eauto).
    destruct (IH sb mb s' m' (k_m0 _ _ Kb) (k_closed _ _ Kb) (k_mono _ _ Kab left TL) Ib H)
      as (Kc & Ic).
    split; [eapply keeps_trans; eauto|exact Ic].
Qed.

Lemma merge_rec_present n h : forall f, rec_ok n h f.
Proof.
  induction f as [|f IHf]; intros s left right m s' m' M0 HC TL HI H; [discriminate|].
  rewrite merge_rec_S in H. destruct (map_get m right) as [x|].
  - injection H as <- <-. split; [apply keeps_refl; assumption|exact HI].
  - apply obind_ok in H as (u1 & _ & H).
    apply obind_ok in H as (s1 & Hput & H).
    apply obind_ok in H as (u2 & _ & H).
    apply obind_ok in H as ([s2 m2] & Hgo & H).
    apply obind_ok in H as (u3 & _ & H). injection H as <- <-.
    assert (K1 : keeps s s1).
    { destruct (has_data h right); [exact (put_keeps _ _ _ _ Hput M0 HC)|].
      injection Hput as <-. apply keeps_refl; assumption. }
    pose proof (k_mono _ _ K1 left TL) as TL1.
    assert (I1 : imgs_present s1 ((right, left) :: m)).
    { intros v w [[= _ <-]|Hin]; [exact TL1|]. exact (k_mono _ _ K1 w (HI v w Hin)). }
    destruct (mgo_present n h f left IHf _ _ _ _ _ (k_m0 _ _ K1) (k_closed _ _ K1) TL1 I1 Hgo)
      as (K2 & I2).
    split; [eapply keeps_trans; eauto|exact I2].
Qed.

Theorem merge_present_gen : forall n s h left right s' m',
  members s 0 <> [] -> lclosed s -> tag s left <> 0 ->
  op_merge_mapped n s h left right = Ok (s', m') ->
  (forall v w, map_get m' v = Some w -> w < cap_of s' /\ tag s' w <> 0)
  /\ lclosed s' /\ members s' 0 <> [] /\ cap_of s' = cap_of s
  /\ (forall u, tag s u <> 0 -> tag s' u <> 0).
Proof.
  intros n s h left right s' m' M0 HC TL H. unfold op_merge_mapped in H.
  destruct (merge_rec_present n h (cap_of h + 2) s left right [] s' m' M0 HC TL) with (2 := H) as ([K1 K2 K3 K4] & I).
  { intros v w []. }
  split; [|auto].
  intros v w Hg. apply map_get_some_in in Hg. pose proof (I v w Hg) as P.
  split; [apply tag_nonzero_lt; exact P|exact P].
Qed.

Lemma inv_m0 n s : Inv n s -> members s 0 <> [].
Proof. intros HI. rewrite (i_m0 HI). discriminate. Qed.

Theorem merge_images_present : forall n s h left right s' m',
  Inv n s -> lclosed s -> tag s left <> 0 ->
  op_merge_mapped n s h left right = Ok (s', m') ->
  forall v w, map_get m' v = Some w -> w < cap_of s' /\ tag s' w <> 0.
Proof.
  intros n s h left right s' m' HI HC TL H.
  apply (merge_present_gen n s h left right s' m' (inv_m0 n s HI) HC TL H).
Qed.

Theorem merge_keeps_lclosed : forall n s h left right s' m',
  Inv n s -> lclosed s -> tag s left <> 0 ->
  op_merge_mapped n s h left right = Ok (s', m') ->
  lclosed s' /\ cap_of s' = cap_of s /\ (forall u, u < cap_of s -> tag s u <> 0 -> tag s' u <> 0).
Proof.
  intros n s h left right s' m' HI HC TL H.
  destruct (merge_present_gen n s h left right s' m' (inv_m0 n s HI) HC TL H) as (_ & A & _ & B & C).
  split; [exact A|]. split; [exact B|]. intros u _ Hu. apply C. exact Hu.
Qed.

Theorem merge_ok_images_present : forall n s h left right s',
  Inv n s -> lclosed s -> tag s left <> 0 -> hclosed h right ->
  op_merge n s h left right = Ok (s', None) ->
  exists m', op_merge_mapped n s h left right = Ok (s', m')
    /\ forall v, tag h v <> 0 ->
         exists w, map_get m' v = Some w /\ w < cap_of s' /\ tag s' w <> 0.
Proof.
  intros n s h left right s' HI HC TL Hh H.
  destruct (merge_ok_mapped n s h left right s' Hh H) as (m' & Hm & Hall).
  exists m'. split; [exact Hm|]. intros v Hv.
  destruct (map_get m' v) as [w|] eqn:G; [|exfalso; apply (Hall v Hv); exact G].
  exists w. split; [reflexivity|].
  apply (merge_images_present n s h left right s' m' HI HC TL Hm v w G).
Qed.

Theorem merge_any_images_present : forall n s h left right s' r,
  Inv n s -> lclosed s -> tag s left <> 0 ->
  op_merge n s h left right = Ok (s', r) ->
  exists m', op_merge_mapped n s h left right = Ok (s', m')
    /\ forall v w, map_get m' v = Some w -> w < cap_of s' /\ tag s' w <> 0.
Proof.
  intros n s h left right s' r HI HC TL H.
  apply op_merge_inv in H as (m' & Hm & _). exists m'. split; [exact Hm|].
  apply (merge_images_present n s h left right s' m' HI HC TL Hm).
Qed.

(** ** a computable check of [lclosed] (for the examples) *)

Definition lclosedb (s : sodg) : bool :=
  forallb (fun u => (tag s u =? 0)
                    || forallb (fun e : label * nat => negb (tag s (snd e) =? 0)) (edg s u))
          (iota (cap_of s)).

Lemma lclosedb_lclosed s : lclosedb s = true <-> lclosed s.
Proof.
  unfold lclosedb. rewrite edges_presentb_spec. split.
  - intros H u a w _ Ht Hi. pose proof (H u a w Ht Hi) as P. split; [apply tag_nonzero_lt; exact P|exact P].
  - intros H u a w Ht Hi. exact (proj2 (H u a w (tag_nonzero_lt _ _ Ht) Ht Hi)).
Qed.

(** ** non-vacuity *)

(** left: 0 -a-> 1 (one group), 1 -c-> 4 and a free vertex 5;
    right: the tree 0 -a-> 1, 0 -b-> 2, 1 -c-> 3, 1 -d-> 4 with data on 2 *)
Definition exP_s_ops : list op :=
  [OAdd 0; OAdd 1; OAdd 4; OAdd 5; OBind 0 1 (Alpha 0); OBind 1 4 (Alpha 2)].
Definition exP_h_ops : list op :=
  [OAdd 0; OAdd 1; OAdd 2; OAdd 3; OAdd 4;
   OBind 0 1 (Alpha 0); OBind 0 2 (Alpha 1); OBind 1 3 (Alpha 2); OBind 1 4 (Alpha 3);
   OPut 2 (HVector [7%N])].
Definition exP_s : sodg := build 16 8 exP_s_ops.
Definition exP_h : sodg := build 16 8 exP_h_ops.

Example merge_present_ex_hyps :
  Inv 16 exP_s /\ lclosed exP_s /\ 0 < cap_of exP_s /\ tag exP_s 0 <> 0 /\ hclosed exP_h 0.
Proof.
  split; [apply (History.limitsb_inv 16 8 exP_s_ops (op_empty 0)); vm_compute; reflexivity|].
  split; [apply lclosedb_lclosed; vm_compute; reflexivity|].
  split; [vm_compute; lia|]. split; [vm_compute; discriminate|].
  apply hclosedb_hclosed. vm_compute. reflexivity.
Qed.

(** a is found (1 -> 1), c is found below it (3 -> 4), b and d are grafted on
    fresh vertices (4 -> 2, 2 -> 3); all four images are present afterwards *)
Example merge_present_ex_result :
  exists s',
    op_merge 16 exP_s exP_h 0 0 = Ok (s', None)
    /\ op_merge_mapped 16 exP_s exP_h 0 0 = Ok (s', [(2, 3); (4, 2); (3, 4); (1, 1); (0, 0)])
    /\ op_keys exP_s = [0; 1; 4; 5] /\ op_keys s' = [0; 1; 2; 3; 4; 5]
    /\ lclosedb s' = true /\ cap_of s' = cap_of exP_s.
Proof.
  eexists. apply and_assoc. split; [eapply op_merge_both; vm_compute; reflexivity|].
  vm_compute. repeat split.
Qed.

(** ** without [lclosed] the conclusion fails *)

(** left: two groups, 0 -a-> 1 and 2 -a-> 3, then the cross edge 0 -b-> 2
    (both ends grouped: only the edge is recorded, the groups stay apart);
    put + data on 2 collects the group {2, 3}; vertex 0 keeps its edge b to the
    absent vertex 2.  right: 0 -b-> 1. *)
Definition exD_s_ops : list op :=
  [OAdd 0; OAdd 1; OAdd 2; OAdd 3;
   OBind 0 1 (Alpha 0); OBind 2 3 (Alpha 0); OBind 0 2 (Alpha 1);
   OPut 2 (HVector [1%N]); OData 2].
Definition exD_h_ops : list op := [OAdd 0; OAdd 1; OBind 0 1 (Alpha 1)].
Definition exD_s : sodg := build 16 8 exD_s_ops.
Definition exD_h : sodg := build 16 8 exD_h_ops.

(** every hypothesis of [merge_images_present] but [lclosed] holds ... *)
Example merge_dangling_hyps :
  Inv 16 exD_s /\ 0 < cap_of exD_s /\ tag exD_s 0 <> 0 /\ hclosed exD_h 0
  /\ lclosedb exD_s = false
  /\ op_keys exD_s = [0; 1] /\ edg exD_s 0 = [(Alpha 0, 1); (Alpha 1, 2)] /\ tag exD_s 2 = 0.
Proof.
  split; [apply (History.limitsb_inv 16 8 exD_s_ops (op_empty 0)); vm_compute; reflexivity|].
  split; [vm_compute; lia|]. split; [vm_compute; discriminate|].
  split; [apply hclosedb_hclosed; vm_compute; reflexivity|].
  vm_compute. repeat split.
Qed.

Example merge_dangling_not_lclosed : ~ lclosed exD_s.
Proof. intros H. apply lclosedb_lclosed in H. vm_compute in H. discriminate. Qed.

(** ... merge answers [Ok(())], and the image of the right vertex 1 is the
    absent left vertex 2 *)
Example merge_dangling_image_absent :
  exists s' m',
    op_merge 16 exD_s exD_h 0 0 = Ok (s', None)
    /\ op_merge_mapped 16 exD_s exD_h 0 0 = Ok (s', m')
    /\ tag exD_h 1 <> 0 /\ map_get m' 1 = Some 2 /\ tag s' 2 = 0
    /\ op_keys s' = [0; 1].
Proof.
  do 2 eexists. apply and_assoc. split; [eapply op_merge_both; vm_compute; reflexivity|].
  vm_compute. repeat split. discriminate.
Qed.

(** ** why [Inv] cannot be carried through the proof: merge binds a vertex to
    itself when the right graph has a loop, and the group bookkeeping then
    lists that vertex twice *)
Definition exL_s : sodg := build 16 8 [OAdd 0].
Definition exL_h : sodg := build 16 8 [OAdd 0; OBind 0 0 (Alpha 0)].

Lemma twice_not_inv n s v : members s 2 = [v; v] -> ~ Inv n s.
Proof.
  intros M HI. assert (N : NoDup (members s 2)) by (apply (i_nodup HI); lia).
  rewrite M in N. inversion N as [|x l Hx _]. apply Hx. left; reflexivity.
Qed.

Example merge_self_bind :
  Inv 16 exL_s /\ lclosed exL_s /\ tag exL_s 0 <> 0 /\
  exists s' m',
    op_merge 16 exL_s exL_h 0 0 = Ok (s', None)
    /\ op_merge_mapped 16 exL_s exL_h 0 0 = Ok (s', m')
    /\ m' = [(0, 0)] /\ edg s' 0 = [(Alpha 0, 0)]
    /\ members s' 2 = [0; 0] /\ ~ Inv 16 s'.
Proof.
  split; [apply (History.limitsb_inv 16 8 [OAdd 0] (op_empty 0)); vm_compute; reflexivity|].
  split; [apply lclosedb_lclosed; vm_compute; reflexivity|].
  split; [vm_compute; discriminate|].
  do 2 eexists. apply and_assoc. split; [eapply op_merge_both; vm_compute; reflexivity|].
  split; [reflexivity|]. split; [vm_compute; reflexivity|].
  split; [vm_compute; reflexivity|]. apply (twice_not_inv 16 _ 0). vm_compute. reflexivity.
Qed.

Print Assumptions merge_present_gen.
Print Assumptions merge_images_present.
Print Assumptions merge_keeps_lclosed.
Print Assumptions merge_ok_images_present.
Print Assumptions merge_any_images_present.
Print Assumptions lclosedb_lclosed.
Print Assumptions merge_present_ex_hyps.
Print Assumptions merge_present_ex_result.
Print Assumptions merge_dangling_hyps.
Print Assumptions merge_dangling_not_lclosed.
Print Assumptions merge_dangling_image_absent.
Print Assumptions merge_self_bind.
