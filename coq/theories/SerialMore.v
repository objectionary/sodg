(** * SerialMore: what the round trip [psodg_rt] of SerialFacts.v gives the
    users of save()/load() over long histories: any number of save+load
    generations ends in the graph the first one produced; the image
    determines the graph up to the allocator position; no complete image is
    the beginning of a longer one.  [renext k g] (NextIrrelevant.v) is [g] with
    the allocator position set to [k]: what load() returns for the image of [g]
    is [renext 0 g]. *)

From Sodg Require Import Serial SerialFacts NextIrrelevant.

Lemma encode_renext k g : encode (renext k g) = encode g.
Proof. reflexivity. (* [encode] does not read [g_next] *) Qed.

Lemma wf_image_renext lim n k g :
  wf_image_state lim n g -> wf_image_state lim n (renext k g).
Proof. intros H. exact H. (* [wf_image_state] does not mention [g_next] *) Qed.

Lemma renext_mkG g k :
  mkG (g_stores g) (g_branches g) (g_vertices g) k = renext k g.
Proof. reflexivity. Qed.

Lemma load_save_renext lim n g :
  wf_image_state lim n g -> decode lim n (encode g) = LOk (renext 0 g).
Proof. exact (load_save lim n g). Qed.

Lemma save_load_save lim n g g' :
  wf_image_state lim n g ->
  decode lim n (encode g) = LOk g' ->
  g' = renext 0 g /\ encode g' = encode g /\ wf_image_state lim n g'
  /\ decode lim n (encode g') = LOk g'.
Proof.
  intros Hwf Hd. rewrite (load_save_renext lim n g Hwf) in Hd.
  injection Hd as <-.
  split; [reflexivity|]. split; [apply encode_renext|]. split; [apply wf_image_renext, Hwf|].
  rewrite encode_renext. exact (load_save_renext lim n g Hwf).
Qed.

(** [k] generations of save followed by load *)
Fixpoint generations (lim : N) (n : nat) (k : nat) (g : sodg) : load_result :=
  match k with
  | 0 => LOk g
  | S k' => match decode lim n (encode g) with
            | LOk g' => generations lim n k' g'
            | e => e
            end
  end.

Lemma generations_def lim n k g :
  generations lim n k g =
  match k with
  | 0 => LOk g
  | S k' => match decode lim n (encode g) with
            | LOk g' => generations lim n k' g'
            | e => e
            end
  end.
Proof. destruct k; reflexivity. Qed.

Lemma generations_fix lim n g k :
  wf_image_state lim n g -> generations lim n k (renext 0 g) = LOk (renext 0 g).
Proof.
  intros Hwf. induction k as [|k IH]; [reflexivity|].
  cbn [generations]. rewrite encode_renext, (load_save_renext lim n g Hwf). exact IH.
Qed.

Lemma generations_stable lim n g k :
  wf_image_state lim n g -> generations lim n (S k) g = LOk (renext 0 g).
Proof.
  intros Hwf. cbn [generations]. rewrite (load_save_renext lim n g Hwf).
  apply generations_fix. exact Hwf.
Qed.

(** the decoder run on the image of [g2] reads [g1] and leaves [rest], and
    reads [g2] and leaves nothing *)
Lemma image_prefix lim n g1 g2 rest :
  wf_image_state lim n g1 -> wf_image_state lim n g2 ->
  encode g2 = encode g1 ++ rest -> rest = [] /\ renext 0 g1 = renext 0 g2.
Proof.
  intros H1 H2 He.
  assert (P1 : psodg lim n (encode g2) = DOk (renext 0 g1) rest)
    by (rewrite He; exact (psodg_rt lim n g1 H1 rest)).
  assert (P2 : psodg lim n (encode g2 ++ []) = DOk (renext 0 g2) [])
    by exact (psodg_rt lim n g2 H2 []).
  rewrite app_nil_r in P2. split; congruence.
Qed.

Lemma image_prefix_free lim n g1 g2 rest :
  wf_image_state lim n g1 -> wf_image_state lim n g2 ->
  encode g2 = encode g1 ++ rest -> rest = [].
Proof. intros H1 H2 He. apply (image_prefix lim n g1 g2 rest H1 H2 He). Qed.

Lemma image_prefix_same lim n g1 g2 rest :
  wf_image_state lim n g1 -> wf_image_state lim n g2 ->
  encode g2 = encode g1 ++ rest -> renext 0 g1 = renext 0 g2.
Proof. intros H1 H2 He. apply (image_prefix lim n g1 g2 rest H1 H2 He). Qed.

Lemma encode_inj_renext lim n g1 g2 :
  wf_image_state lim n g1 -> wf_image_state lim n g2 ->
  encode g1 = encode g2 <-> renext 0 g1 = renext 0 g2.
Proof.
  intros H1 H2. split.
  - intros He. apply (image_prefix_same lim n g1 g2 [] H1 H2).
    rewrite app_nil_r. symmetry. exact He.
  - intros Hr. rewrite <- (encode_renext 0 g1), Hr. reflexivity.
Qed.

Example generations_example :
  generations 1048576 4 1 example_graph = LOk (renext 0 example_graph)
  /\ generations 1048576 4 3 example_graph = LOk (renext 0 example_graph)
  /\ renext 0 example_graph <> example_graph.
Proof.
  split; [exact (generations_stable _ _ _ 0 example_wf)|].
  split; [exact (generations_stable _ _ _ 2 example_wf)|discriminate].
Qed.
