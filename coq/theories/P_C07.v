(** * C07  No memory errors, and limit overruns stop with a panic   (PARTIAL)

    "No sequence of calls performs an out-of-bounds access, use-after-free,
    double free or uninitialised read.  Calls within the limits complete; calls
    that exceed one (id at or above the capacity, more than N labels on a
    vertex, more than 16 vertices in a group) stop with a panic before touching
    memory outside the graph.  This is claimed for builds with debug
    assertions."

    What the model can carry, and what is proved here:
    (a) calls within the limits complete: [C07_within_limits_no_panic];
    (b) each overrun stops with the panic of the container whose bound it
        exceeds, and for an id at or above the capacity the bound check is the
        first thing the call evaluates, before any slot is read or written:
        [C07_id_overrun], [C07_label_overrun], [C07_member_overrun];
    (c) bounds discipline: in every state the invariant holds of, every index
        sodg hands to one of its containers (group tag -> the two group
        tables, member -> vertex store, member count, label count, allocator
        position) is inside that container: [C07_bounds_discipline].
    What the model cannot exhibit: the raw-pointer / MaybeUninit code inside
    emap, micromap and microstack, i.e. whether those containers honour their
    contract.  That part of the property is covered only by running the
    correspondence stream under AddressSanitizer (thorough tier), which is
    supporting evidence, not proof (DESIGN.md section 12). *)

From Sodg Require Import Limits.

Theorem C07_within_limits_no_panic :
  forall n cap os,
  within_limits n cap sinit os ->
  exists g', run n (op_empty cap) os = Ok (g', snd (srun sinit os))
             /\ Inv n g' /\ R g' (fst (srun sinit os)) /\ cap_of g' = cap.
Proof. exact sim_run_empty. Qed.

Check C07_within_limits_no_panic :
  forall n cap os,
  within_limits n cap sinit os ->
  exists g', run n (op_empty cap) os = Ok (g', snd (srun sinit os))
             /\ Inv n g' /\ R g' (fst (srun sinit os)) /\ cap_of g' = cap.
Print Assumptions C07_within_limits_no_panic.

Theorem C07_id_overrun :
  forall n g o,
  match o with
  | OAdd v | OPut v _ | OData v | OKid v _ | OKids v => cap_of g <= v
  | OBind v1 v2 _ => cap_of g <= v1 \/ cap_of g <= v2
  | _ => False
  end -> step n g o = Panic PBoundary.
Proof. exact step_boundary_first. Qed.

Check C07_id_overrun :
  forall n g o,
  match o with
  | OAdd v | OPut v _ | OData v | OKid v _ | OKids v => cap_of g <= v
  | OBind v1 v2 _ => cap_of g <= v1 \/ cap_of g <= v2
  | _ => False
  end -> step n g o = Panic PBoundary.
Print Assumptions C07_id_overrun.

Theorem C07_label_overrun :
  forall n g v1 v2 a,
  v1 < cap_of g -> v2 < cap_of g -> mm_get (edg g v1) a = None -> n <= length (edg g v1) ->
  op_bind n g v1 v2 a = Panic PMapFull.
Proof. exact bind_label_overflow. Qed.

Check C07_label_overrun :
  forall n g v1 v2 a,
  v1 < cap_of g -> v2 < cap_of g -> mm_get (edg g v1) a = None -> n <= length (edg g v1) ->
  op_bind n g v1 v2 a = Panic PMapFull.
Print Assumptions C07_label_overrun.

Theorem C07_member_overrun :
  forall n g v1 v2 a,
  Inv n g -> tag g v1 <> 0 -> tag g v2 <> 0 -> room n g v1 a ->
  ((tag g v1 = 1 /\ 2 <= tag g v2 /\ length (members g (tag g v2)) = 16)
   \/ (2 <= tag g v1 /\ tag g v2 = 1 /\ length (members g (tag g v1)) = 16)) ->
  op_bind n g v1 v2 a = Panic PStackFull.
Proof. exact bind_group_overflow. Qed.

Check C07_member_overrun :
  forall n g v1 v2 a,
  Inv n g -> tag g v1 <> 0 -> tag g v2 <> 0 -> room n g v1 a ->
  ((tag g v1 = 1 /\ 2 <= tag g v2 /\ length (members g (tag g v2)) = 16)
   \/ (2 <= tag g v1 /\ tag g v2 = 1 /\ length (members g (tag g v1)) = 16)) ->
  op_bind n g v1 v2 a = Panic PStackFull.
Print Assumptions C07_member_overrun.

Theorem C07_bounds_discipline :
  forall n g,
  Inv n g ->
  (forall v, tag g v < nb g /\ tag g v < ns g)
  /\ (forall b m, 2 <= b -> b < 16 -> In m (members g b) -> m < cap_of g)
  /\ (forall b, 2 <= b -> b < 16 -> length (members g b) <= 16)
  /\ (forall v, length (edg g v) <= n)
  /\ g_next g <= cap_of g.
Proof. exact bounds_discipline. Qed.

Check C07_bounds_discipline :
  forall n g,
  Inv n g ->
  (forall v, tag g v < nb g /\ tag g v < ns g)
  /\ (forall b m, 2 <= b -> b < 16 -> In m (members g b) -> m < cap_of g)
  /\ (forall b, 2 <= b -> b < 16 -> length (members g b) <= 16)
  /\ (forall v, length (edg g v) <= n)
  /\ g_next g <= cap_of g.
Print Assumptions C07_bounds_discipline.

Theorem C07_every_step_keeps_the_invariant :
  forall n g o,
  Inv n g -> cpre n g o -> exists g' r, step n g o = Ok (g', r) /\ Inv n g'.
Proof. exact step_inv. Qed.

Check C07_every_step_keeps_the_invariant :
  forall n g o,
  Inv n g -> cpre n g o -> exists g' r, step n g o = Ok (g', r) /\ Inv n g'.
Print Assumptions C07_every_step_keeps_the_invariant.

Theorem C07_capacity_never_changes :
  forall n g o g' r,
  step n g o = Ok (g', r) -> same_shape g g'.
Proof. exact step_shape. Qed.

Check C07_capacity_never_changes :
  forall n g o g' r,
  step n g o = Ok (g', r) -> same_shape g g'.
Print Assumptions C07_capacity_never_changes.


(** non-vacuity of the id overrun and of the label overrun, on concrete graphs *)
Example C07_example_id : step 2 (op_empty 4) (OAdd 4) = Panic PBoundary.
Proof. reflexivity. Qed.

Example C07_example_labels :
  exists g, run 1 (op_empty 4) [OAdd 0; OAdd 1; OBind 0 1 (Alpha 0)] = Ok (g, [RUnit; RUnit; RUnit])
            /\ op_bind 1 g 0 1 (Alpha 1) = Panic PMapFull.
Proof. eexists. split; vm_compute; reflexivity. Qed.


