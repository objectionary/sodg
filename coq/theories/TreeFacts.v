(** * TreeFacts: finite labelled trees, their embedding [emb] into a graph,
    the counts [bound] and [free], the preorder [mono] and the graft of a new
    vertex, for C11 (MergeTreeFacts.v).  [ids], [tsize], [maxdeg] and [emb]
    go through the kids by a local [fix], as the guard condition wants;
    [ids_node], [tsize_node], [maxdeg_node], [emb_node] are their equations. *)

From Sodg Require Export MergeFacts.

Inductive tree := Node (id : nat) (kids : list (label * tree)).

Definition root (T : tree) : nat := match T with Node i _ => i end.
Definition kids (T : tree) : list (label * tree) := match T with Node _ k => k end.

Fixpoint ids (T : tree) : list nat :=
  match T with
  | Node i ks =>
      i :: (fix go (l : list (label * tree)) : list nat :=
              match l with
              | [] => []
              | p :: r => match p with (_, t) => ids t ++ go r end
              end) ks
  end.

Fixpoint ids_kids (ks : list (label * tree)) : list nat :=
  match ks with
  | [] => []
  | p :: r => ids (snd p) ++ ids_kids r
  end.

Lemma ids_node i ks : ids (Node i ks) = i :: ids_kids ks.
Proof.
  cbn [ids]. f_equal. induction ks as [|[a t] r IH]; cbn [ids_kids snd]; [reflexivity|].
  rewrite IH. reflexivity.
Qed.

Fixpoint tsize (T : tree) : nat :=
  match T with
  | Node _ ks =>
      S ((fix go (l : list (label * tree)) : nat :=
            match l with
            | [] => 0
            | p :: r => match p with (_, t) => tsize t + go r end
            end) ks)
  end.

Fixpoint tsize_kids (ks : list (label * tree)) : nat :=
  match ks with
  | [] => 0
  | p :: r => tsize (snd p) + tsize_kids r
  end.

Lemma tsize_node i ks : tsize (Node i ks) = S (tsize_kids ks).
Proof.
  cbn [tsize]. f_equal. induction ks as [|[a t] r IH]; cbn [tsize_kids snd]; [reflexivity|].
  rewrite IH. reflexivity.
Qed.

Fixpoint maxdeg (T : tree) : nat :=
  match T with
  | Node _ ks =>
      Nat.max (length ks)
        ((fix go (l : list (label * tree)) : nat :=
            match l with
            | [] => 0
            | p :: r => match p with (_, t) => Nat.max (maxdeg t) (go r) end
            end) ks)
  end.

Fixpoint maxdeg_kids (ks : list (label * tree)) : nat :=
  match ks with
  | [] => 0
  | p :: r => Nat.max (maxdeg (snd p)) (maxdeg_kids r)
  end.

Lemma maxdeg_node i ks : maxdeg (Node i ks) = Nat.max (length ks) (maxdeg_kids ks).
Proof.
  cbn [maxdeg]. f_equal. induction ks as [|[a t] r IH]; cbn [maxdeg_kids snd]; [reflexivity|].
  rewrite IH. reflexivity.
Qed.

Lemma tree_ind2 (P : tree -> Prop) :
  (forall i ks, (forall a t, In (a, t) ks -> P t) -> P (Node i ks)) -> forall T, P T.
Proof.
  intros H. fix IH 1. intros [i ks]. apply H.
  induction ks as [|[b u] r IHr].
  - intros a t [].
  - intros a t [E|Hin].
    + injection E as _ <-. apply IH.
    + eapply IHr; eauto.
Qed.

Lemma tsize_kids_eq T : tsize T = S (tsize_kids (kids T)).
Proof. destruct T. apply tsize_node. Qed.

Lemma ids_kids_spec ks v :
  In v (ids_kids ks) <-> exists a t, In (a, t) ks /\ In v (ids t).
Proof.
  induction ks as [|[b u] r IH]; cbn [ids_kids snd In].
  - split; [intros []|intros (_ & _ & [] & _)].
  - rewrite in_app_iff, IH. split.
    + intros [H|(a & t & Hi & Hv)]; [exists b, u|exists a, t]; auto.
    + intros (a & t & [E|Hi] & Hv); [injection E as <- <-; auto|right; eauto].
Qed.

Lemma ids_kids_in ks a t v : In (a, t) ks -> In v (ids t) -> In v (ids_kids ks).
Proof. intros. apply ids_kids_spec. eauto. Qed.

Lemma ids_kids_app ks1 ks2 : ids_kids (ks1 ++ ks2) = ids_kids ks1 ++ ids_kids ks2.
Proof.
  induction ks1 as [|p r IH]; cbn [ids_kids app]; [reflexivity|]. rewrite IH, app_assoc. reflexivity.
Qed.

Lemma root_in_ids T : In (root T) (ids T).
Proof. destruct T as [i ks]. rewrite ids_node. left; reflexivity. Qed.

Lemma kids_in ks a t : In (a, t) ks -> tsize t <= tsize_kids ks /\ maxdeg t <= maxdeg_kids ks.
Proof.
  induction ks as [|[b u] r IH]; cbn [tsize_kids maxdeg_kids snd In]; [tauto|].
  intros [E|Hin]; [injection E as _ <-; lia|]. specialize (IH Hin). lia.
Qed.

Lemma tsize_ids T : tsize T = length (ids T).
Proof.
  induction T as [i ks IH] using tree_ind2. rewrite ids_node, tsize_node. cbn [length]. f_equal.
  induction ks as [|[a t] r IHr]; cbn [ids_kids tsize_kids snd]; [reflexivity|].
  rewrite app_length, (IH a t) by (left; reflexivity). f_equal.
  apply IHr. intros b u Hin. apply (IH b u). right; exact Hin.
Qed.

Lemma ids_kids_nodup_in ks a t : NoDup (ids_kids ks) -> In (a, t) ks -> NoDup (ids t).
Proof.
  induction ks as [|[b u] r IH]; cbn [ids_kids snd In]; [tauto|].
  intros H [E|Hin]; apply nodup_app in H as (H1 & H2 & _).
  - injection E as _ <-. exact H1.
  - apply IH; assumption.
Qed.

Lemma ids_kids_disjoint ks a u b w :
  NoDup (ids_kids ks) -> In (a, u) ks -> In (b, w) ks -> a <> b ->
  forall v, In v (ids u) -> ~ In v (ids w).
Proof.
  induction ks as [|[c x] r IH]; cbn [ids_kids snd In]; [tauto|].
  intros H Hu Hw Hne v Hv1 Hv2. apply nodup_app in H as (H1 & H2 & H3).
  destruct Hu as [Eu|Hu]; destruct Hw as [Ew|Hw].
  - injection Eu as -> _. injection Ew as -> _. contradiction.
  - injection Eu as _ <-. apply (H3 v Hv1). eapply ids_kids_in; eauto.
  - injection Ew as _ <-. apply (H3 v Hv2). eapply ids_kids_in; eauto.
  - eapply IH; eauto.
Qed.

Fixpoint emb (g : sodg) (T : tree) : Prop :=
  match T with
  | Node i ks =>
      tag g i <> 0
      /\ edg g i = map (fun p : label * tree => (fst p, root (snd p))) ks
      /\ (fix all (l : list (label * tree)) : Prop :=
            match l with
            | [] => True
            | p :: r => match p with (_, t) => emb g t /\ all r end
            end) ks
  end.

Definition kid_edges (ks : list (label * tree)) : edges :=
  map (fun p : label * tree => (fst p, root (snd p))) ks.

Lemma emb_node g i ks :
  emb g (Node i ks) <->
  tag g i <> 0 /\ edg g i = kid_edges ks /\ forall a t, In (a, t) ks -> emb g t.
Proof.
  cbn [emb]. do 2 apply and_iff_compat_l. induction ks as [|[b u] r IH].
  - split; [intros _ a t []|auto].
  - rewrite IH. split.
    + intros [H1 H2] a t [E|Hin]; [injection E as _ <-; exact H1|eapply H2; eauto].
    + intros H. split; [apply (H b); left; reflexivity|]. intros a t Hin. apply (H a). right; exact Hin.
Qed.

Definition embeds (g : sodg) (T : tree) : Prop := emb g T /\ NoDup (ids T).

Lemma emb_present g T : emb g T -> forall v, In v (ids T) -> tag g v <> 0.
Proof.
  induction T as [i ks IH] using tree_ind2. intros H v Hv.
  apply emb_node in H as (H1 & H2 & H3). rewrite ids_node in Hv. destruct Hv as [<-|Hv]; [exact H1|].
  apply ids_kids_spec in Hv as (a & t & Hin & Hv). eapply IH; eauto.
Qed.

Lemma emb_frame g g' T :
  emb g T -> (forall v, In v (ids T) -> tag g' v <> 0 /\ edg g' v = edg g v) -> emb g' T.
Proof.
  induction T as [i ks IH] using tree_ind2. intros H Hf.
  apply emb_node in H as (H1 & H2 & H3). apply emb_node.
  destruct (Hf i) as [F1 F2]; [rewrite ids_node; left; reflexivity|].
  split; [exact F1|]. split; [congruence|].
  intros a t Hin. eapply IH; eauto. intros v Hv. apply Hf. rewrite ids_node. right.
  eapply ids_kids_in; eauto.
Qed.

Lemma emb_deg g T : emb g T -> forall v, In v (ids T) -> length (edg g v) <= maxdeg T.
Proof.
  induction T as [i ks IH] using tree_ind2. intros H v Hv.
  apply emb_node in H as (H1 & H2 & H3). rewrite maxdeg_node. rewrite ids_node in Hv.
  destruct Hv as [<-|Hv].
  - rewrite H2. unfold kid_edges. rewrite map_length. lia.
  - apply ids_kids_spec in Hv as (a & t & Hin & Hv).
    pose proof (IH a t Hin (H3 a t Hin) v Hv). pose proof (kids_in ks a t Hin). lia.
Qed.

Lemma in_mm_get e a w : NoDup (map fst e) -> In (a, w) e -> mm_get e a = Some w.
Proof.
  induction e as [|[k x] t IH]; cbn [mm_get map fst In]; [tauto|].
  intros Hn [E|Hin].
  - injection E as -> ->. rewrite label_eqb_refl. reflexivity.
  - inversion Hn as [|? ? Hk Ht]; subst. destruct (label_eqb k a) eqn:E.
    + apply label_eqb_spec in E. subst k. exfalso. apply Hk.
      change a with (fst (a, w)). apply in_map. exact Hin.
    + apply IH; assumption.
Qed.

Lemma kid_edges_in ks a x : In (a, x) (kid_edges ks) <-> exists t, In (a, t) ks /\ root t = x.
Proof.
  unfold kid_edges. rewrite in_map_iff. split.
  - intros ([b t] & E & Hin). cbn [fst snd] in E. injection E as -> <-. eauto.
  - intros (t & Hin & <-). exists (a, t). split; [reflexivity|exact Hin].
Qed.

Lemma kid_edges_keys ks : map fst (kid_edges ks) = map fst ks.
Proof. unfold kid_edges. rewrite map_map. reflexivity. Qed.

Lemma emb_edge_in g T : emb g T -> forall u a w, In u (ids T) -> In (a, w) (edg g u) -> In w (ids T).
Proof.
  induction T as [i ks IH] using tree_ind2. intros H u a w Hu Hi.
  apply emb_node in H as (H1 & H2 & H3). rewrite ids_node in *. destruct Hu as [<-|Hu].
  - rewrite H2 in Hi. apply kid_edges_in in Hi as (t & Hin & <-). right.
    eapply ids_kids_in; eauto. apply root_in_ids.
  - apply ids_kids_spec in Hu as (b & t & Hin & Hu). right. eapply ids_kids_in; eauto.
Qed.

Lemma emb_reach_iff g T :
  emb g T -> forall u, In u (ids T) <-> reach ptrue g (root T) u.
Proof.
  intros E u. split.
  - revert E u. induction T as [i ks IH] using tree_ind2. intros H u Hu.
    apply emb_node in H as (H1 & H2 & H3). rewrite ids_node in Hu. cbn [root].
    destruct Hu as [<-|Hu]; [apply reach_refl|].
    apply ids_kids_spec in Hu as (b & t & Hin & Hu).
    eapply reach_trans; [|eapply IH; eauto].
    eapply reach_edge; [|reflexivity]. rewrite H2. apply kid_edges_in. eauto.
  - apply (reach_in_closed_set ptrue g (root T) (fun x => In x (ids T))).
    + apply root_in_ids.
    + intros x a w Hx Hi _. eapply emb_edge_in; eauto.
Qed.

Lemma emb_hclosed g T : emb g T -> hclosed g (root T).
Proof.
  intros H. pose proof (emb_present g T H) as P. split.
  - apply tag_nonzero_lt. apply P. apply root_in_ids.
  - intros u Hu. apply (emb_reach_iff g T H) in Hu. split; [apply P; exact Hu|].
    intros a w Hi. apply tag_nonzero_lt. apply P. eapply emb_edge_in; eauto.
Qed.

(** at most [k] present vertices *)
Definition bound (g : sodg) (k : nat) : Prop :=
  exists L, length L <= k /\ forall v, tag g v <> 0 -> In v L.

(** at least [c] absent ids at or above the allocator position (sorted:
    [next_id] takes the least one) *)
Definition free (g : sodg) (c : nat) : Prop :=
  exists F, c <= length F /\ StronglySorted lt F
            /\ forall v, In v F -> g_next g <= v /\ v < cap_of g /\ tag g v = 0.

Lemma bound_le g k k' : bound g k -> k <= k' -> bound g k'.
Proof. intros (L & H1 & H2) Hle. exists L. split; [lia|exact H2]. Qed.

Lemma free_le g c c' : free g c -> c' <= c -> free g c'.
Proof. intros (F & H1 & H2) Hle. exists F. split; [lia|exact H2]. Qed.

Lemma bound_more g g' k l :
  (forall v, tag g' v <> 0 -> In v l \/ tag g v <> 0) -> bound g k -> bound g' (length l + k).
Proof.
  intros H (L & H1 & H2). exists (l ++ L). split; [rewrite app_length; lia|].
  intros v Hv. apply in_app_iff. destruct (H v Hv); auto.
Qed.

Lemma free_step g g' c :
  cap_of g' = cap_of g -> g_next g' = g_next g ->
  (forall v, g_next g <= v -> tag g v = 0 -> tag g' v = 0) -> free g c -> free g' c.
Proof.
  intros C N T (F & H1 & H2 & H3). exists F. split; [exact H1|]. split; [exact H2|].
  intros v Hv. destruct (H3 v Hv) as (A1 & A2 & A3). rewrite C, N. auto.
Qed.

Lemma bound_keys g : bound g (length (op_keys g)).
Proof.
  exists (op_keys g). split; [lia|]. intros v Hv. apply in_op_keys.
  split; [apply tag_nonzero_lt; exact Hv|exact Hv].
Qed.

Definition free_list (g : sodg) : list nat :=
  filter (fun v => (tag g v =? 0) && (g_next g <=? v)) (iota (cap_of g)).

Lemma free_free_list g : free g (length (free_list g)).
Proof.
  exists (free_list g). split; [lia|]. split.
  - apply filter_ssorted. apply seq_ssorted.
  - intros v Hv. apply filter_In in Hv as [H1 H2]. apply andb_true_iff in H2 as [H2 H3].
    apply Nat.eqb_eq in H2. apply Nat.leb_le in H3. unfold iota in H1. apply in_seq in H1.
    repeat split; try assumption; lia.
Qed.

Lemma bind_pre n g k v1 v2 a :
  Inv n g -> bound g k -> k <= 15 -> tag g v1 <> 0 -> tag g v2 = 1 -> v1 <> v2 -> room n g v1 a ->
  cpre n g (OBind v1 v2 a).
Proof.
  intros HI (L & H1 & H2) Hk T1 T2. apply (bind_cpre n g L 1 v1 v2 a HI H2); try lia.
  intros b _ _. destruct (members g b); [left; reflexivity|right; cbn [length]; lia].
Qed.

(** what merge does to the left graph: vertices and edges stay, and a new
    edge leads to a new vertex *)

(* The fields of the records of this file and of MergeTreeFacts.v are applied
   to a proof of the record and to their hypotheses only, as in [mo_tag M H]:
   the parameters of the record, and the variables that a hypothesis of the
   field determines, are made implicit. *)
Set Implicit Arguments. Unset Strict Implicit.
Record mono (s s' : sodg) : Prop := {
  mo_cap : cap_of s' = cap_of s;
  mo_next : g_next s <= g_next s';
  mo_tag : forall v, tag s v <> 0 -> tag s' v <> 0;
  mo_keep : forall v a w, tag s v <> 0 -> mm_get (edg s v) a = Some w -> mm_get (edg s' v) a = Some w;
  mo_old : forall v a x, tag s v <> 0 -> mm_get (edg s' v) a = Some x ->
                         mm_get (edg s v) a = Some x \/ tag s x = 0;
  mo_new : forall v a x, tag s v = 0 -> tag s' v <> 0 -> mm_get (edg s' v) a = Some x -> tag s x = 0
}.
Set Strict Implicit. Unset Implicit Arguments.

Lemma mono_absent {s s'} (M : mono s s') v : tag s' v = 0 -> tag s v = 0.
Proof.
  intros Z. destruct (Nat.eq_dec (tag s v) 0) as [E|NE]; [exact E|]. exfalso. apply (mo_tag M NE Z).
Qed.

Lemma mono_same s s1 :
  cap_of s1 = cap_of s -> g_next s1 = g_next s ->
  (forall w, tag s1 w = tag s w) -> (forall w, edg s1 w = edg s w) -> mono s s1.
Proof.
  intros C N T E. split.
  - exact C.
  - rewrite N. apply Nat.le_refl.
  - intros v. rewrite T. auto.
  - intros v a w _. rewrite E. auto.
  - intros v a x _. rewrite E. auto.
  - intros v a x H1 H2. rewrite T in H2. contradiction.
Qed.

Lemma mono_refl s : mono s s.
Proof. apply mono_same; reflexivity. Qed.

Lemma mono_trans a b c : mono a b -> mono b c -> mono a c.
Proof.
  intros A B. pose proof (mono_absent A) as Z.
  destruct A as [A1 A2 A3 A4 A5 A6], B as [B1 B2 B3 B4 B5 B6]. split.
  - congruence.
  - lia.
  - auto.
  - auto.
  - intros v l x Hv Hg. destruct (B5 v l x (A3 v Hv) Hg) as [H|H]; [apply A5; assumption|].
    right. apply Z. exact H.
  - intros v l x Hv Hc Hg. destruct (Nat.eq_dec (tag b v) 0) as [Zv|NZ].
    + apply Z. exact (B6 v l x Zv Hc Hg).
    + destruct (B5 v l x NZ Hg) as [H|H]; [exact (A6 v l x Hv NZ H)|apply Z; exact H].
Qed.

(** ** the three calls that graft a new vertex under [left]: next_id, add, bind *)

Lemma next_sum n g c :
  Inv n g -> free g (S c) ->
  exists id, op_next_id g = Ok (set_next g (S id), id) /\ Inv n (set_next g (S id))
    /\ g_next g <= id /\ id < cap_of g /\ tag g id = 0 /\ free (set_next g (S id)) c.
Proof.
  intros HI (F & HF1 & HF2 & HF3). destruct F as [|f0 F']; [cbn in HF1; lia|].
  destruct (HF3 f0 (or_introl eq_refl)) as (A1 & A2 & A3).
  destruct (inv_next n g HI) as (g1 & id & Hn & I1); [exists f0; auto|].
  destruct (op_next_id_inv g g1 id Hn) as (-> & N1 & N2 & N3 & N4).
  exists id. do 5 (split; [assumption|]).
  (* [id] is the least candidate and [f0] is one; the rest of [F] lies above [f0] *)
  assert (Hidf : id <= f0).
  { destruct (Nat.le_gt_cases id f0) as [H|H]; [exact H|]. exfalso. apply (N4 f0 A1 H A3). }
  exists F'. split; [cbn [length] in HF1; lia|].
  apply StronglySorted_inv in HF2 as [HF2 HF4]. split; [exact HF2|].
  intros v Hv. rewrite Forall_forall in HF4. specialize (HF4 v Hv).
  destruct (HF3 v (or_intror Hv)) as (_ & B2 & B3).
  split; [change (S id <= v); lia|]. split; [exact B2|exact B3].
Qed.

Lemma add_absent n g v :
  Inv n g -> v < cap_of g -> tag g v = 0 ->
  exists g', op_add g v = Ok g' /\ Inv n g'
    /\ cap_of g' = cap_of g /\ g_next g' = g_next g
    /\ (forall w, tag g' w = if w =? v then 1 else tag g w)
    /\ (forall w, prs g' w = if w =? v then PEmpty else prs g w)
    /\ (forall w, dat g' w = if w =? v then hex_empty else dat g w)
    /\ (forall w, edg g' w = if w =? v then [] else edg g w).
Proof.
  intros HI Hv Z.
  destruct (add_sum n g v HI Hv) as (g' & A & I' & T & P & Dd & E & _ & _ & X).
  rewrite Z in T, P, Dd, E. cbn [Nat.eqb] in T, P, Dd, E.
  exists g'. split; [exact A|]. split; [exact I'|].
  split; [exact (se_cap _ _ X)|]. split; [exact (se_next _ _ X)|].
  repeat split; intros w; rewrite <- (andb_true_r (w =? v)); auto.
Qed.

Set Implicit Arguments. Unset Strict Implicit.
Record grafted (n : nat) (s : sodg) (left : nat) (a : label) (s' : sodg) (id k c : nat)
  : Prop := {
  gr_inv : Inv n s';
  gr_cap : cap_of s' = cap_of s;
  gr_next : g_next s <= g_next s';
  gr_id : tag s id = 0 /\ g_next s <= id;
  gr_tag : forall w, tag s' w <> 0 <-> w = id \/ tag s w <> 0;
  gr_old : forall w, tag s w <> 0 ->
             dat s' w = dat s w /\ prs s' w = prs s w /\ (left <> w -> edg s' w = edg s w);
  gr_left : edg s' left = edg s left ++ [(a, id)];
  gr_leaf : edg s' id = [];
  gr_bound : bound s' (S k);
  gr_free : free s' c
}.
Set Strict Implicit. Unset Implicit Arguments.

Lemma grafted_mono {n s left a s' id k c} :
  grafted n s left a s' id k c -> mm_get (edg s left) a = None -> mono s s'.
Proof.
  intros GR Hnone.
  pose proof (gr_tag GR) as Tg. pose proof (gr_old GR) as Old. pose proof (gr_left GR) as EL.
  split.
  - exact (gr_cap GR).
  - exact (gr_next GR).
  - intros v Hv. apply Tg. right; exact Hv.
  - intros v b w Hv Hg. destruct (Nat.eq_dec left v) as [<-|Nv].
    + rewrite EL, (mm_get_app_fresh _ _ _ _ Hnone). destruct (label_eqb a b) eqn:Eab; [|exact Hg].
      apply label_eqb_spec in Eab. congruence.
    + destruct (Old v Hv) as (_ & _ & ->); assumption.
  - intros v b x Hv Hg. destruct (Nat.eq_dec left v) as [<-|Nv].
    + rewrite EL, (mm_get_app_fresh _ _ _ _ Hnone) in Hg. destruct (label_eqb a b); [|left; exact Hg].
      injection Hg as <-. right; exact (proj1 (gr_id GR)).
    + destruct (Old v Hv) as (_ & _ & E). rewrite (E Nv) in Hg. left; exact Hg.
  - intros v b x Hv Hv' Hg. apply Tg in Hv' as [->|Hv']; [|contradiction].
    rewrite (gr_leaf GR) in Hg. discriminate.
Qed.

Lemma attach_fresh n s left a k c :
  Inv n s -> tag s left <> 0 -> mm_get (edg s left) a = None -> length (edg s left) < n ->
  bound s k -> k <= 14 -> free s (S c) ->
  exists s' id, attach n s left a None None = Ok (s', id) /\ grafted n s left a s' id k c.
Proof.
  intros HI Tl Hnone Hlen HB Hk HF.
  destruct (next_sum n s c HI HF) as (id & Hn & I1 & N1 & N2 & N3 & F1).
  (* [tag (set_next s _) w] is [tag s w] by computation; so for [prs], [dat], [edg], [cap_of] *)
  destruct (add_absent n (set_next s (S id)) id I1 N2 N3) as (s2 & Ha & I2 & C2 & X2 & T2 & P2 & D2 & E2).
  assert (Old : forall w, tag s w <> 0 -> (w =? id) = false).
  { intros w Pw. apply Nat.eqb_neq. congruence. }
  assert (El2 : edg s2 left = edg s left) by (rewrite E2, (Old left Tl); reflexivity).
  assert (Hp : cpre n s2 (OBind left id a)).
  { apply (bind_pre n s2 (S k)); [exact I2| |lia| | | |].
    - apply (bound_more s s2 k [id]); [|exact HB]. intros v. rewrite T2.
      destruct (Nat.eqb_spec v id) as [->|_]; [left; left; reflexivity|auto].
    - rewrite T2, (Old left Tl). exact Tl.
    - rewrite T2, Nat.eqb_refl. reflexivity.
    - congruence.
    - right. rewrite El2. exact Hlen. }
  destruct (bind_sum n s2 left id a I2 Hp) as (s' & Hb & I' & F).
  pose proof (se_cap _ _ (bf_sev _ _ _ _ F)) as C'. pose proof (se_next _ _ (bf_sev _ _ _ _ F)) as X'.
  pose proof (bf_tag _ _ _ _ F) as T'. pose proof (bf_prs _ _ _ _ F) as P'.
  pose proof (bf_dat _ _ _ _ F) as D'. pose proof (bf_edg _ _ _ _ F) as E'.
  rewrite El2, (spec_insert_fresh _ _ _ Hnone) in E'.
  assert (Tg : forall w, tag s' w <> 0 <-> w = id \/ tag s w <> 0).
  { intros w. rewrite T', T2. destruct (Nat.eqb_spec w id) as [->|Hw]; [split; [auto|lia]|].
    split; [auto|]. intros [H|H]; [contradiction|exact H]. }
  exists s', id. split.
  { unfold attach. rewrite Hn. cbn [obind fst snd]. rewrite Ha. cbn [obind]. rewrite Hb. reflexivity. }
  split; [exact I'| | |auto|exact Tg| | | | |].
  - rewrite C', C2. reflexivity.
  - rewrite X', X2. change (g_next s <= S id). lia.
  - intros w Pw. rewrite D', D2, P', P2, E', E2, (Old w Pw). split; [reflexivity|]. split; [reflexivity|].
    intros Hw. destruct (Nat.eqb_spec w left); [congruence|reflexivity].
  - rewrite E', Nat.eqb_refl. reflexivity.
  - rewrite E', E2, Nat.eqb_refl. destruct (Nat.eqb_spec id left); [congruence|reflexivity].
  - apply (bound_more s s' k [id]); [|exact HB]. intros v Hv.
    apply Tg in Hv as [->|Hv]; [left; left; reflexivity|auto].
  - apply (free_step (set_next s (S id))); [congruence|congruence| |exact F1]. intros v Hv Zv.
    destruct (Nat.eq_dec (tag s' v) 0) as [E|NE]; [exact E|]. apply Tg in NE as [->|NE]; [|contradiction].
    change (S id <= id) in Hv. lia.
Qed.
