(** * ExportFacts: [to_xml] / [to_dot] (property C18, P_C18.v).  [sort_edges]
    returns the one sorted permutation of an edge list with distinct labels,
    and the renderers see a node only through [xnode_abs] (id, edges, bytes
    of the data): graphs with the same content have the same documents under
    [xnode_abs], hence the same text ([export_canonical]). *)

From Sodg Require Import Export Facts LabelFacts.
From Coq Require Import Permutation Sorted.

(** [label_eqb] (derived [Eq]) and [label_compare] (derived [Ord]) agree *)
Lemma label_compare_eqb a b : label_eqb a b = true <-> label_compare a b = Eq.
Proof. rewrite label_eqb_spec, label_compare_eq_iff. tauto. Qed.

Definition eleb (a b : label * nat) : Prop := label_leb (fst a) (fst b) = true.

Lemma ins_edge_perm x l : Permutation (ins_edge x l) (x :: l).
Proof.
  induction l as [|y t IH]; simpl; auto.
  destruct (label_leb (fst y) (fst x)); auto.
  eapply perm_trans; [apply perm_skip; exact IH | apply perm_swap].
Qed.

Lemma sort_edges_perm l : Permutation (sort_edges l) l.
Proof.
  induction l as [|x t IH]; simpl; auto.
  eapply perm_trans; [apply ins_edge_perm | apply perm_skip; exact IH].
Qed.

Lemma ins_edge_sorted x l : StronglySorted eleb l -> StronglySorted eleb (ins_edge x l).
Proof.
  induction l as [|y t IH]; simpl; intros Hs.
  - repeat constructor.
  - apply StronglySorted_inv in Hs as [Hs Hf].
    destruct (label_leb (fst y) (fst x)) eqn:E.
    + constructor; [apply IH; exact Hs|].
      eapply Permutation_Forall; [apply Permutation_sym, ins_edge_perm|].
      constructor; [exact E | exact Hf].
    + apply label_leb_total in E.
      repeat constructor; auto.
      eapply Forall_impl; [|exact Hf]. intros z. apply label_leb_trans. exact E.
Qed.

Lemma sort_edges_sorted l : StronglySorted eleb (sort_edges l).
Proof.
  induction l as [|x t IH]; simpl; [constructor|]. apply ins_edge_sorted. exact IH.
Qed.

Lemma sorted_perm_unique l1 :
  forall l2,
    StronglySorted eleb l1 -> StronglySorted eleb l2 ->
    NoDup (map fst l1) -> Permutation l1 l2 -> l1 = l2.
Proof.
  induction l1 as [|a t1 IH]; intros l2 S1 S2 ND P.
  - symmetry. apply Permutation_nil. exact P.
  - destruct l2 as [|b t2]; [apply Permutation_sym, Permutation_nil in P; discriminate|].
    apply StronglySorted_inv in S1 as [S1 F1]. apply StronglySorted_inv in S2 as [S2 F2].
    apply NoDup_cons_iff in ND as [Hnin ND]. rewrite Forall_forall in F1, F2.
    assert (Hab : a = b).
    { (* otherwise [a] occurs in [t2] and [b] in [t1]; each head is below the
         other, so the two have the same label, which then occurs twice *)
      destruct (Permutation_in a P (or_introl eq_refl)) as [Ha|Ha]; [auto|].
      destruct (Permutation_in b (Permutation_sym P) (or_introl eq_refl)) as [Hb|Hb]; [auto|].
      exfalso. apply Hnin.
      rewrite (label_leb_antisym _ _ (F1 b Hb) (F2 a Ha)). apply in_map. exact Hb. }
    subst b. f_equal. apply IH; auto. eapply Permutation_cons_inv. exact P.
Qed.

Lemma sort_edges_canonical e1 e2 :
  NoDup (map fst e1) -> Permutation e1 e2 -> sort_edges e1 = sort_edges e2.
Proof.
  intros ND P. apply sorted_perm_unique; try apply sort_edges_sorted.
  - eapply Permutation_NoDup; [|exact ND].
    apply Permutation_map, Permutation_sym, sort_edges_perm.
  - rewrite !sort_edges_perm. exact P.
Qed.

Lemma sort_edges_eq_perm e1 e2 : sort_edges e1 = sort_edges e2 -> Permutation e1 e2.
Proof. intros E. rewrite <- (sort_edges_perm e1), E. apply sort_edges_perm. Qed.

Lemma sort_edges_id e :
  StronglySorted eleb e -> NoDup (map fst e) -> sort_edges e = e.
Proof.
  intros S ND. symmetry. apply sorted_perm_unique; auto.
  - apply sort_edges_sorted.
  - apply Permutation_sym, sort_edges_perm.
Qed.

Lemma has_data_spec g v : has_data g v = true <-> prs g v <> PEmpty.
Proof. unfold has_data. destruct (prs g v); simpl; split; congruence. Qed.

Definition node_of (g : sodg) (v : nat) : xnode :=
  mkX v (sort_edges (edg g v)) (if has_data g v then Some (dat g v) else None).

Lemma export_doc_nodes g : export_doc g = map (node_of g) (op_keys g).
Proof. reflexivity. Qed.

Lemma export_ids g : map x_id (export_doc g) = op_keys g.
Proof. rewrite export_doc_nodes, map_map. apply map_id. Qed.

Lemma export_node_of_key g v : In v (op_keys g) -> In (node_of g v) (export_doc g).
Proof. apply in_map. Qed.

Lemma export_node_is_node_of g x : In x (export_doc g) -> x = node_of g (x_id x).
Proof.
  rewrite export_doc_nodes. intros H. apply in_map_iff in H as (v & <- & _). reflexivity.
Qed.

Lemma export_node_content g x :
  In x (export_doc g) ->
  Permutation (x_edges x) (edg g (x_id x)) /\
  StronglySorted eleb (x_edges x) /\
  x_data x = (if has_data g (x_id x) then Some (dat g (x_id x)) else None).
Proof.
  intros H. rewrite (export_node_is_node_of g x H). cbn [node_of x_id x_edges x_data].
  split; [apply sort_edges_perm | split; [apply sort_edges_sorted | reflexivity]].
Qed.

Lemma export_absent g v : tag g v = 0 -> ~ In v (map x_id (export_doc g)).
Proof. rewrite export_ids, in_op_keys. intros H [_ H']. contradiction. Qed.

Lemma export_out_of_range g v : cap_of g <= v -> ~ In v (map x_id (export_doc g)).
Proof. rewrite export_ids, in_op_keys. intros H [H' _]. lia. Qed.

Lemma export_edge_entries g x a w :
  In x (export_doc g) -> (In (a, w) (x_edges x) <-> In (a, w) (edg g (x_id x))).
Proof.
  intros H. destruct (export_node_content g x H) as (P & _).
  split; apply Permutation_in; [|apply Permutation_sym]; exact P.
Qed.

Lemma export_edge_count g x :
  In x (export_doc g) -> length (x_edges x) = length (edg g (x_id x)).
Proof.
  intros H. apply Permutation_length. apply (export_node_content g x H).
Qed.

(** the content of a node with the representation of the data forgotten *)
Definition xnode_abs (x : xnode) : nat * edges * option (list N) :=
  (x_id x, x_edges x, option_map bytes (x_data x)).

Lemma render_node_abs x y :
  xnode_abs x = xnode_abs y ->
  render_xml_node x = render_xml_node y /\ render_dot_node x = render_dot_node y.
Proof.
  destruct x as [i e d], y as [j f c]. unfold xnode_abs; cbn [x_id x_edges x_data].
  intros H. injection H as -> -> H.
  destruct d as [h|], c as [k|]; try discriminate H; [|split; reflexivity].
  injection H as H. (* the data enters through [hex_print], a function of [bytes] *)
  unfold render_xml_node, render_dot_node, hex_print; cbn [x_id x_edges x_data].
  rewrite H. split; reflexivity.
Qed.

Lemma render_abs d1 d2 :
  map xnode_abs d1 = map xnode_abs d2 ->
  render_xml d1 = render_xml d2 /\ render_dot d1 = render_dot d2.
Proof.
  intros H. split.
  - apply (map_eq_through _ render_xml_node) in H; [|intros x y E; apply render_node_abs, E].
    unfold render_xml. destruct d1, d2; try discriminate H; [reflexivity|].
    cbv beta iota. rewrite H. reflexivity.
  - apply (map_eq_through _ render_dot_node) in H; [|intros x y E; apply render_node_abs, E].
    unfold render_dot. rewrite H. reflexivity.
Qed.

Definition same_content (g1 g2 : sodg) : Prop :=
  op_keys g1 = op_keys g2 /\
  forall v, In v (op_keys g1) ->
    Permutation (edg g1 v) (edg g2 v) /\
    has_data g1 v = has_data g2 v /\
    (has_data g1 v = true -> bytes (dat g1 v) = bytes (dat g2 v)).

Lemma same_content_refl g : same_content g g.
Proof. split; auto. Qed.

Lemma same_content_sym g1 g2 : same_content g1 g2 -> same_content g2 g1.
Proof.
  intros [K C]. split; [auto|]. intros v Hv. rewrite <- K in Hv.
  destruct (C v Hv) as (P & HD & B). repeat split.
  - apply Permutation_sym; exact P.
  - auto.
  - intros H. symmetry. apply B. rewrite HD. exact H.
Qed.

Lemma same_content_trans g1 g2 g3 :
  same_content g1 g2 -> same_content g2 g3 -> same_content g1 g3.
Proof.
  intros [K1 C1] [K2 C2]. split; [congruence|]. intros v Hv.
  destruct (C1 v Hv) as (P1 & HD1 & B1). rewrite K1 in Hv.
  destruct (C2 v Hv) as (P2 & HD2 & B2). repeat split.
  - eapply perm_trans; eauto.
  - congruence.
  - intros H. rewrite B1 by exact H. apply B2. rewrite <- HD1. exact H.
Qed.

Lemma node_of_abs_eq g1 g2 v :
  xnode_abs (node_of g1 v) = xnode_abs (node_of g2 v) <->
  sort_edges (edg g1 v) = sort_edges (edg g2 v) /\
  has_data g1 v = has_data g2 v /\
  (has_data g1 v = true -> bytes (dat g1 v) = bytes (dat g2 v)).
Proof.
  unfold xnode_abs, node_of; cbn [x_id x_edges x_data]. split.
  - intros H. injection H as E D. split; [exact E|].
    destruct (has_data g1 v), (has_data g2 v); cbn [option_map] in D; try discriminate D;
      split; congruence.
  - intros (E & HD & B). rewrite E, <- HD.
    destruct (has_data g1 v); cbn [option_map]; [rewrite (B eq_refl)|]; reflexivity.
Qed.

Lemma export_doc_abs_eq g1 g2 :
  map xnode_abs (export_doc g1) = map xnode_abs (export_doc g2) <->
  op_keys g1 = op_keys g2 /\
  forall v, In v (op_keys g1) -> xnode_abs (node_of g1 v) = xnode_abs (node_of g2 v).
Proof.
  split.
  - intros H. assert (K : op_keys g1 = op_keys g2).
    { rewrite <- (export_ids g1), <- (export_ids g2).
      apply (f_equal (map (fun t : nat * edges * option (list N) => fst (fst t)))) in H.
      rewrite !map_map in H. exact H. }
    split; [exact K|]. apply ext_in_map.
    rewrite !export_doc_nodes, <- K, !map_map in H. exact H.
  - intros [K C]. rewrite !export_doc_nodes, <- K, !map_map. apply map_ext_in. exact C.
Qed.

Theorem export_canonical_doc g1 g2 :
  (forall v, In v (op_keys g1) -> NoDup (map fst (edg g1 v))) ->
  same_content g1 g2 ->
  map xnode_abs (export_doc g1) = map xnode_abs (export_doc g2).
Proof.
  intros ND [K C]. apply export_doc_abs_eq. split; [exact K|]. intros v Hv.
  destruct (C v Hv) as (P & HD & B). apply node_of_abs_eq.
  split; [apply sort_edges_canonical|]; auto.
Qed.

Theorem export_canonical g1 g2 :
  (forall v, In v (op_keys g1) -> NoDup (map fst (edg g1 v))) ->
  same_content g1 g2 ->
  op_to_xml g1 = op_to_xml g2 /\ op_to_dot g1 = op_to_dot g2.
Proof. intros ND S. apply render_abs, export_canonical_doc; assumption. Qed.

Theorem export_doc_determines_content g1 g2 :
  map xnode_abs (export_doc g1) = map xnode_abs (export_doc g2) ->
  same_content g1 g2.
Proof.
  intros H. apply export_doc_abs_eq in H as [K C]. split; [exact K|]. intros v Hv.
  destruct (proj1 (node_of_abs_eq g1 g2 v) (C v Hv)) as (E & HD & B).
  split; [apply sort_edges_eq_perm|]; auto.
Qed.

(** ** the graphs of the examples of P_C18.v *)

Definition run (o : outcome sodg) (d : sodg) : sodg :=
  match o with Ok g => g | _ => d end.

Definition lbl_foo : label := LStr [102; 111; 111; 32; 32; 32; 32; 32]%N.

(** capacity 4; vertices added 0, 1, 2; edges of 0 bound alpha1 first, then
    rho; data of 0 in the heap representation *)
Definition ex_a : sodg :=
  let g0 := op_empty 4 in
  let g := run (op_add g0 0) g0 in
  let g := run (op_add g 1) g0 in
  let g := run (op_add g 2) g0 in
  let g := run (op_bind 16 g 0 1 (Alpha 1)) g0 in
  let g := run (op_bind 16 g 0 2 (Greek 961)) g0 in
  let g := run (op_bind 16 g 2 1 lbl_foo) g0 in
  run (op_put g 0 (HVector [202; 254]%N)) g0.

(** capacity 6; vertices added 2, 0, 1; edges of 0 bound rho first, then
    alpha1; data of 0 in the inline representation with non-zero padding *)
Definition ex_b : sodg :=
  let g0 := op_empty 6 in
  let g := run (op_add g0 2) g0 in
  let g := run (op_add g 0) g0 in
  let g := run (op_add g 1) g0 in
  let g := run (op_bind 16 g 2 1 lbl_foo) g0 in
  let g := run (op_put g 0 (HBytes [202; 254; 7; 7; 7; 7; 7; 7]%N 2)) g0 in
  let g := run (op_bind 16 g 0 2 (Greek 961)) g0 in
  run (op_bind 16 g 0 1 (Alpha 1)) g0.

(** vertices 0 and 1 form a group; taking the only datum of the group
    destroys both (their slots keep edges and data, tag 0), vertex 2 stays *)
Definition ex_stale : sodg :=
  let g0 := op_empty 4 in
  let g := run (op_add g0 0) g0 in
  let g := run (op_add g 1) g0 in
  let g := run (op_add g 2) g0 in
  let g := run (op_bind 16 g 0 1 (Alpha 0)) g0 in
  let g := run (op_put g 1 (HVector [222; 173]%N)) g0 in
  match op_data g 1 with Ok (g', _) => g' | _ => g0 end.

(** the same graph without the leftovers *)
Definition ex_fresh : sodg := run (op_add (op_empty 4) 2) (op_empty 4).
