(** * Wf: the value-level well-formedness that Rust gets from its types
    (labels hold scalar values, inline arrays have 8 bytes, ...) and that the
    model has to carry explicitly, as an invariant of every state reached
    through the interface with well-typed arguments.  Its consequences: every
    such state satisfies the hypothesis [wf_image_state] of the save/load
    theorems C08/C09, inspect() terminates on it (C20) and its exports are
    canonical (C18). *)

(* first, so that [run] is the one of Spec.v: ExportFacts.v has a [run] of its own *)
From Sodg Require Import PrintFacts Export ExportFacts.
From Sodg Require Export HistoryThms Serial SerialFacts.

Definition hex_small (h : hex) : Prop :=
  match h with HVector l => (N.of_nat (length l) < two64)%N | HBytes _ _ => True end.

Record Wf (g : sodg) : Prop := {
  w_s0 : store g 0 = 0;
  w_s1 : store g 1 = 0;
  w_dat : forall v, wf_hex (dat g v) = true /\ hex_small (dat g v);
  w_edg : forall v a t, In (a, t) (edg g v) -> wf_label a = true /\ t < cap_of g
}.

(** well-typed call arguments: what the Rust types [Label], [Hex] guarantee *)
Definition wf_op (o : op) : Prop :=
  match o with
  | OBind _ _ a => wf_label a = true
  | OPut _ d => wf_hex d = true /\ hex_small d
  | _ => True
  end.

Lemma wf_empty cap : Wf (op_empty cap).
Proof.
  split.
  - apply store_empty.
  - apply store_empty.
  - intros v. rewrite dat_empty. split; [reflexivity|exact I].
  - intros v a t. rewrite edg_empty. intros [].
Qed.

(** every call within its concrete precondition and with well-typed
    arguments keeps [Wf] *)
Lemma wf_step n g o g' r :
  Inv n g -> cpre n g o -> wf_op o -> Wf g -> step n g o = Ok (g', r) -> Wf g'.
Proof.
  intros HI Hp Ho HW Hs.
  destruct (step_provenance n g o g' r HI Hp Hs) as (S & Hd & He).
  pose proof (step_shape n g o g' r Hs) as (Hc & _).
  split.
  - rewrite S by lia. apply (w_s0 _ HW).
  - rewrite S by lia. apply (w_s1 _ HW).
  - intros v. destruct (Hd v) as [->|[->|[u ->]]]; [apply (w_dat _ HW)|split; [reflexivity|exact I]|exact Ho].
  - intros v a t Hin. rewrite Hc. destruct (He v a t Hin) as [Q| ->]; [exact (w_edg _ HW v a t Q)|].
    split; [exact Ho|]. apply tag_nonzero_lt, Hp.
Qed.

Theorem wf_run n : forall os g s,
  Inv n g -> R g s -> Wf g -> within_limits n (cap_of g) s os -> Forall wf_op os ->
  exists g', run n g os = Ok (g', snd (srun s os))
             /\ Inv n g' /\ Wf g' /\ R g' (fst (srun s os)) /\ cap_of g' = cap_of g.
Proof. exact (sim_run_with n wf_op Wf (wf_step n)). Qed.

Theorem inv_wf_image n g lim :
  Inv n g -> Wf g ->
  (16 < lim)%N -> (N.of_nat (cap_of g) < lim)%N -> (lim <= two64)%N -> (N.of_nat n < two64)%N ->
  wf_image_state lim n g.
Proof.
  intros HI HW L16 Lcap Llim Ln. unfold wf_image_state, wf_num.
  pose proof (i_nb HI) as Hnb. pose proof (i_ns HI) as Hns. unfold nb, ns in *.
  split; [exact Llim|]. split; [exact Ln|].
  split; [rewrite Hns; lia|]. split; [rewrite Hnb; lia|]. split; [exact Lcap|].
  split; [|split].
  - (* a group's counter is the number of its members with unread data *)
    apply (Forall_nth_lt _ _ 0). intros i Hi. fold (store g i). rewrite Hns in Hi.
    destruct i as [|[|i]]; [rewrite (w_s0 _ HW); lia|rewrite (w_s1 _ HW); lia|].
    rewrite (i_cnt HI (S (S i))) by lia.
    pose proof (nstored_le g (members g (S (S i)))). pose proof (i_len HI (S (S i))). lia.
  - (* the members of a group are present vertices *)
    apply (Forall_nth_lt _ _ []). intros i Hi. fold (members g i). rewrite Hnb in Hi.
    unfold wf_stack_img, wf_num.
    destruct i as [|[|i]]; [rewrite (i_m0 HI)|rewrite (i_m1 HI)|];
      [split; [cbn; lia|repeat constructor; lia]..|].
    split; [apply (i_len HI); lia|]. apply Forall_forall. intros v Hv.
    apply (i_mem HI (S (S i))) in Hv; [|lia|lia].
    assert (v < cap_of g) by (apply tag_nonzero_lt; lia). lia.
  - apply (Forall_nth_lt _ _ blank). intros i Hi. fold (vtx g i). fold (cap_of g) in Hi.
    unfold wf_vertex_img, wf_num. fold (tag g i) (dat g i) (edg g i).
    pose proof (i_tag HI i). destruct (w_dat _ HW i) as [Hh Hs]. destruct (i_edges HI i) as [Hnd Hlen].
    split; [lia|]. split; [|split; [exact Hnd|split; [exact Hlen|]]].
    + unfold wf_hex_img. split; [exact Hh|]. destruct (dat g i) as [l|a k]; [exact Hs|].
      unfold wf_num. cbn [wf_hex] in Hh. apply andb_true_iff in Hh as [_ Hk]. apply Nat.leb_le in Hk. lia.
    + apply Forall_forall. intros [a t] He. destruct (w_edg _ HW i a t He) as [Hl Ht].
      split; [exact Hl|]. unfold wf_num. cbn [snd]. lia.
Qed.

Lemma reachable_wf n cap os :
  within_limits n cap sinit os -> Forall wf_op os ->
  exists g, run n (op_empty cap) os = Ok (g, snd (srun sinit os))
    /\ Inv n g /\ Wf g /\ cap_of g = cap.
Proof.
  intros HL HO. rewrite <- (cap_empty cap) in HL.
  destruct (wf_run n os (op_empty cap) sinit (inv_empty n cap) (R_init cap) (wf_empty cap) HL HO)
    as (g & A & I & W & _ & C).
  rewrite cap_empty in C. eauto.
Qed.

(** every graph reached through the interface within the limits with
    well-typed arguments can be saved and loaded back (C08) and every strict
    prefix of its image is rejected (C09) *)
Theorem reachable_roundtrip n cap os lim :
  within_limits n cap sinit os -> Forall wf_op os ->
  (16 < lim)%N -> (N.of_nat cap < lim)%N -> (lim <= two64)%N -> (N.of_nat n < two64)%N ->
  exists g, run n (op_empty cap) os = Ok (g, snd (srun sinit os))
    /\ decode lim n (encode g) = LOk (mkG (g_stores g) (g_branches g) (g_vertices g) 0)
    /\ forall k, k < length (encode g) -> decode lim n (firstn k (encode g)) = LErr.
Proof.
  intros HL HO L16 Lcap Llim Ln.
  destruct (reachable_wf n cap os HL HO) as (g & A & I & W & <-).
  pose proof (inv_wf_image n g lim I W L16 Lcap Llim Ln) as WI.
  exists g. split; [exact A|]. split; [apply load_save, WI|]. intros k. apply load_cut, WI.
Qed.

(** ** consequences for the printers: every state reached through the
    interface is closed (all stored edge targets are below the capacity), so
    inspect() terminates on it from every start vertex; its labels are
    pairwise distinct, so the exports are canonical *)

Lemma wf_closed g v : Wf g -> v < cap_of g -> closed g v.
Proof.
  intros HW Hv. split; [exact Hv|]. intros u a w _ Hin. apply (w_edg _ HW u a w Hin).
Qed.

Theorem reachable_inspect_terminates n cap os v :
  within_limits n cap sinit os -> Forall wf_op os -> v < cap ->
  exists g ls, run n (op_empty cap) os = Ok (g, snd (srun sinit os)) /\ inspect_doc g v = Ok ls.
Proof.
  intros HL HO Hv. destruct (reachable_wf n cap os HL HO) as (g & A & _ & W & <-).
  destruct (inspect_doc_spec g v (wf_closed g v W Hv)) as (ls & rs & E & _). eauto.
Qed.

Theorem invariant_export_canonical n g1 g2 :
  Inv n g1 -> same_content g1 g2 -> op_to_xml g1 = op_to_xml g2 /\ op_to_dot g1 = op_to_dot g2.
Proof.
  intros HI HS. apply export_canonical; [|exact HS]. intros v _. apply (i_edges HI v).
Qed.
