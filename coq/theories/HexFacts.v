(** * HexFacts: the [Hex] model (Hex.v) behind properties C15 and C16 (P_C15.v,
    P_C16.v).  Every accessor of a well-formed value is a function of its
    [bytes], up to the kind of panic ([same_out]); [concat_bytes] says what
    [concat] returns on every pair of operands. *)

From Sodg Require Import Hex.
From Coq Require Import ZifyBool ZifyN.

Local Open Scope nat_scope.

(** Not reflexive: [OutOfFuel] and [Unmodelled] are related to nothing.  That
    the slice functions return neither is [sl_same], [idx_same] and
    [sl_kind_same]. *)
Definition same_out {A} (x y : outcome A) : Prop :=
  match x, y with
  | Ok a, Ok b => a = b
  | Panic _, Panic _ => True
  | _, _ => False
  end.

Lemma same_out_sym {A} (x y : outcome A) : same_out x y -> same_out y x.
Proof. destruct x, y; cbn [same_out]; intros H; try exact H; try exact I. symmetry; exact H. Qed.

Lemma same_out_trans {A} (x y z : outcome A) :
  same_out x y -> same_out y z -> same_out x z.
Proof.
  destruct x, y; cbn [same_out]; try contradiction.
  - intros ->. auto.
  - intros _. destruct z; auto.
Qed.

Lemma same_out_eq {A} (x y : outcome A) : x = y -> same_out x x -> same_out x y.
Proof. intros <- H; exact H. Qed.

Lemma wf_HBytes_iff a n :
  wf_hex (HBytes a n) = true <->
  length a = 8 /\ forallb wf_byte a = true /\ n <= 8.
Proof.
  cbn [wf_hex]. rewrite !andb_true_iff, Nat.eqb_eq, Nat.leb_le. tauto.
Qed.

Lemma wf_bytes_all h : wf_hex h = true -> forallb wf_byte (bytes h) = true.
Proof.
  destruct h as [l|a n]; intros H; cbn [bytes]; [exact H|].
  apply wf_HBytes_iff in H as (_ & H & _). apply forallb_firstn, H.
Qed.

Lemma len_bytes h : wf_hex h = true -> hex_len h = length (bytes h).
Proof.
  destruct h as [l|a n]; intros H; cbn [bytes hex_len]; [reflexivity|].
  apply wf_HBytes_iff in H as (Ha & _ & Hn).
  symmetry. apply firstn_length_le. rewrite Ha. exact Hn.
Qed.

Lemma is_empty_isnil h : wf_hex h = true -> hex_is_empty h = isnil (bytes h).
Proof.
  intros H. unfold hex_is_empty. rewrite (len_bytes h H).
  destruct (bytes h); reflexivity.
Qed.

Lemma hex_eqb_spec a b : hex_eqb a b = true <-> bytes a = bytes b.
Proof. unfold hex_eqb, bytes_eqb. apply list_eqb_spec, N.eqb_eq. Qed.

(** An accessor that agrees, on well-formed values, with a function of
    [bytes] cannot tell two representations of the same bytes apart. *)
Lemma via_bytes {A} (f : hex -> outcome A) (g : list N -> outcome A) :
  (forall h, wf_hex h = true -> same_out (f h) (g (bytes h))) ->
  forall h1 h2, wf_hex h1 = true -> wf_hex h2 = true -> bytes h1 = bytes h2 ->
  same_out (f h1) (f h2).
Proof.
  intros F h1 h2 W1 W2 E. apply same_out_trans with (g (bytes h1)); [apply F, W1|].
  rewrite E. apply same_out_sym, F, W2.
Qed.

Lemma sl_same l s e : same_out (sl l s e) (sl l s e).
Proof. unfold sl. destruct ((s <=? e)%N && (e <=? nlen l)%N); cbn [same_out]; auto. Qed.

Lemma idx_same l i : same_out (idx l i) (idx l i).
Proof. unfold idx. destruct (i <? nlen l)%N; cbn [same_out]; auto. Qed.

Lemma sl_kind_same l k s e : same_out (sl_kind l k s e) (sl_kind l k s e).
Proof.
  destruct k; cbn [sl_kind]; try apply sl_same; try reflexivity;
    destruct (e =? usize_max)%N; try exact I; apply sl_same.
Qed.

(** The inline representation guards every access by the used length [n] and
    then indexes the whole array; the reference indexes the prefix
    [firstn n a].  The two agree: *)
Lemma sl_prefix a n s e k :
  n <= length a ->
  same_out (if (e <=? N.of_nat n)%N then sl a s e else Panic k) (sl (firstn n a) s e).
Proof.
  intros Hn. unfold sl, nlen. rewrite firstn_length_le by exact Hn.
  destruct (N.leb_spec e (N.of_nat n)) as [He|He]; [|rewrite andb_false_r; exact I].
  assert ((e <=? N.of_nat (length a))%N = true) as -> by lia.
  destruct (s <=? e)%N; [|exact I]. cbn [andb same_out].
  rewrite skipn_firstn_comm, firstn_firstn. f_equal. lia.
Qed.

Lemma idx_prefix a n i k :
  n <= length a ->
  same_out (if (i <? N.of_nat n)%N then idx a i else Panic k) (idx (firstn n a) i).
Proof.
  intros Hn. unfold idx, nlen. rewrite firstn_length_le by exact Hn.
  destruct (N.ltb_spec i (N.of_nat n)) as [Hi|Hi]; [|exact I].
  assert ((i <? N.of_nat (length a))%N = true) as -> by lia.
  cbn [same_out]. symmetry. apply nth_firstn_lt. lia.
Qed.

Lemma sl_gt l s e : (e < s)%N -> sl l s e = Panic PIndex.
Proof. intros H. unfold sl. rewrite (proj2 (N.leb_gt s e) H). reflexivity. Qed.

Lemma sl_full a n : n <= length a -> sl a 0 (N.of_nat n) = Ok (firstn n a).
Proof.
  intros Hn. unfold sl, nlen.
  assert ((N.of_nat n <=? N.of_nat (length a))%N = true) as -> by lia.
  rewrite (proj2 (N.leb_le 0 _) (N.le_0_l _)), N.sub_0_r, Nat2N.id. reflexivity.
Qed.

Lemma sl_from l s :
  (s <= nlen l)%N -> sl l s (nlen l) = Ok (skipn (N.to_nat s) l).
Proof.
  intros H. unfold sl. rewrite (proj2 (N.leb_le _ _) H), N.leb_refl.
  cbn [andb]. f_equal. apply firstn_all2. rewrite skipn_length. unfold nlen. lia.
Qed.

Lemma index_bytes h i :
  wf_hex h = true -> same_out (hex_index h i) (idx (bytes h) i).
Proof.
  destruct h as [l|a n]; intros H; cbn [hex_index bytes]; [apply idx_same|].
  apply wf_HBytes_iff in H as (Ha & _ & Hn). apply idx_prefix. rewrite Ha. exact Hn.
Qed.

Lemma ltb_add1_leb (e n : N) : (e <? n)%N = (e + 1 <=? n)%N.
Proof.
  apply eq_true_iff_eq. rewrite N.ltb_lt, N.leb_le, N.add_1_r, N.le_succ_l. reflexivity.
Qed.

Lemma range_bytes_arr a n k s e :
  n <= length a ->
  same_out (hex_range (HBytes a n) k s e) (sl_kind (firstn n a) k s e).
Proof.
  intros Hn. pose proof (fun s e => sl_prefix a n s e PAssert Hn) as P.
  (* [s..=e] is [s..e+1] unless [e] is the largest [usize]; [..=e] is [0..=e] *)
  assert (PI : forall s, same_out (if (e <? N.of_nat n)%N then sl_kind a RIncl s e else Panic PAssert)
                                 (sl_kind (firstn n a) RIncl s e)).
  { clear s. intros s. cbn [sl_kind]. destruct (e =? usize_max)%N.
    - destruct (e <? N.of_nat n)%N; exact I.
    - rewrite ltb_add1_leb. apply P. }
  destruct k; cbn [hex_range].
  - apply P.
  - (* [s..] is [s..n], guarded on [s] *)
    cbn [sl_kind]. unfold nlen. rewrite firstn_length_le by exact Hn.
    specialize (P s (N.of_nat n)). rewrite N.leb_refl in P.
    destruct (N.leb_spec s (N.of_nat n)); [exact P | rewrite sl_gt by assumption; exact I].
  - rewrite sl_full by exact Hn. reflexivity.
  - apply PI.
  - apply P.
  - apply (PI 0%N).
Qed.

Lemma range_bytes h k s e :
  wf_hex h = true -> same_out (hex_range h k s e) (sl_kind (bytes h) k s e).
Proof.
  destruct h as [l|a n]; intros H; cbn [hex_range bytes]; [apply sl_kind_same|].
  apply wf_HBytes_iff in H as (Ha & _ & Hn). apply range_bytes_arr. rewrite Ha. exact Hn.
Qed.

Lemma bytes_from_slice l : bytes (from_slice l) = l.
Proof.
  unfold from_slice. destruct (length l <=? HEX_SIZE); cbn [bytes]; [|reflexivity].
  apply firstn_length_app.
Qed.

Lemma bytes_from_vec l : bytes (from_vec l) = l.
Proof.
  unfold from_vec. destruct (length l <=? HEX_SIZE); [apply bytes_from_slice | reflexivity].
Qed.

Lemma wf_from_slice l : forallb wf_byte l = true -> wf_hex (from_slice l) = true.
Proof.
  intros Hl. unfold from_slice, HEX_SIZE.
  destruct (Nat.leb_spec (length l) 8) as [E|E]; [|exact Hl].
  apply wf_HBytes_iff. split; [|split; [|exact E]].
  - rewrite app_length, repeat_length. lia.
  - rewrite forallb_app, Hl. apply forallb_repeat. reflexivity.
Qed.

Lemma wf_from_vec l : forallb wf_byte l = true -> wf_hex (from_vec l) = true.
Proof.
  intros Hl. unfold from_vec.
  destruct (length l <=? HEX_SIZE); [apply wf_from_slice; exact Hl | exact Hl].
Qed.

Lemma tail_ok h skip :
  (skip <= nlen (bytes h))%N ->
  hex_tail h skip = Ok (from_vec (skipn (N.to_nat skip) (bytes h))).
Proof. intros Hs. unfold hex_tail. rewrite sl_from by exact Hs. reflexivity. Qed.

Lemma tail_panic h skip :
  (nlen (bytes h) < skip)%N -> hex_tail h skip = Panic PIndex.
Proof. intros Hs. unfold hex_tail. rewrite sl_gt by exact Hs. reflexivity. Qed.

(** The operands on which [Hex::concat] does not return the bytes of [a]
    followed by those of [b] (the known finding of C16, P_C16.v): [a] is
    inline with room left and the result does not fit inline. *)
Definition KnownC16 (a b : hex) : Prop :=
  exists arr l, a = HBytes arr l /\ l < 8 /\ 8 < l + hex_len b.

Definition known_c16 (a b : hex) : bool :=
  match a with
  | HVector _ => false
  | HBytes _ l => (l <? 8) && (8 <? l + hex_len b)
  end.

Lemma known_c16_spec a b : known_c16 a b = true <-> KnownC16 a b.
Proof.
  unfold KnownC16. destruct a as [v|arr l]; cbn [known_c16].
  - split; [discriminate | intros (arr & l & E & _); discriminate].
  - rewrite andb_true_iff, !Nat.ltb_lt. split.
    + intros H. exists arr, l. split; [reflexivity | exact H].
    + intros (arr' & l' & E & H). inversion E; subst. exact H.
Qed.

(** the array entries of an inline value beyond its used length *)
Definition padding (a : hex) : list N :=
  match a with
  | HVector _ => []
  | HBytes arr l => skipn l arr
  end.

(** What [concat] returns, for every pair of operands: in the class
    [known_c16] the padding of [a] is copied between the two byte strings. *)
Lemma concat_bytes a b :
  wf_hex a = true -> wf_hex b = true ->
  bytes (hex_concat a b) =
  bytes a ++ (if known_c16 a b then padding a else []) ++ bytes b.
Proof.
  intros Wa Wb. destruct a as [v|arr l]; [reflexivity|].
  apply wf_HBytes_iff in Wa as (Ha & _ & Hl).
  cbn [hex_concat known_c16 padding]. unfold HEX_SIZE.
  destruct (Nat.leb_spec (l + hex_len b) 8) as [E|E]; cbn [bytes].
  - (* fits inline: [l + len b] entries of [a[..l] ++ b ++ a[l + len b..]] *)
    assert ((8 <? l + hex_len b) = false) as -> by (apply Nat.ltb_ge; exact E).
    rewrite andb_false_r. cbn [app].
    assert (Hlen : length (firstn l arr) = l) by (apply firstn_length_le; rewrite Ha; exact Hl).
    rewrite <- Hlen at 1. rewrite firstn_app_2. f_equal.
    rewrite (len_bytes b Wb). apply firstn_length_app.
  - (* spills: the whole array is copied *)
    assert ((8 <? l + hex_len b) = true) as -> by (apply Nat.ltb_lt; exact E).
    rewrite andb_true_r, app_assoc.
    destruct (Nat.ltb_spec l 8) as [L|L]; [rewrite firstn_skipn; reflexivity|].
    rewrite firstn_all2, app_nil_r by (rewrite Ha; exact L). reflexivity.
Qed.

Lemma concat_wf a b :
  wf_hex a = true -> wf_hex b = true -> wf_hex (hex_concat a b) = true.
Proof.
  intros Wa Wb. pose proof (wf_bytes_all b Wb) as Fb.
  destruct a as [v|arr l]; cbn [hex_concat wf_hex].
  - cbn [wf_hex] in Wa. rewrite forallb_app, Wa, Fb. reflexivity.
  - apply wf_HBytes_iff in Wa as (Ha & Fa & Hl). unfold HEX_SIZE.
    destruct (Nat.leb_spec (l + hex_len b) 8) as [E|E].
    + apply wf_HBytes_iff. split; [|split; [|exact E]].
      * rewrite !app_length, firstn_length_le, skipn_length, <- (len_bytes b Wb) by lia. lia.
      * rewrite !forallb_app, Fb, (forallb_firstn _ _ _ Fa), (forallb_skipn _ _ _ Fa).
        reflexivity.
    + cbn [wf_hex]. rewrite forallb_app, Fa, Fb. reflexivity.
Qed.

Local Open Scope N_scope.

Lemma hexval_upper d : d < 16 -> hexval (hexdigit_upper d) = Some d.
Proof.
  intros Hd. unfold hexval, hexdigit_upper. destruct (d <? 10) eqn:E.
  - assert (((48 <=? 48 + d) && (48 + d <=? 57))%bool = true) as -> by lia.
    f_equal. lia.
  - assert (((48 <=? 55 + d) && (55 + d <=? 57))%bool = false) as -> by lia.
    assert (((65 <=? 55 + d) && (55 + d <=? 70))%bool = true) as -> by lia.
    f_equal. lia.
Qed.

Lemma hexval_lower d : d < 16 -> hexval (hexdigit_lower d) = Some d.
Proof.
  intros Hd. unfold hexval, hexdigit_lower. destruct (d <? 10) eqn:E.
  - assert (((48 <=? 48 + d) && (48 + d <=? 57))%bool = true) as -> by lia.
    f_equal. lia.
  - assert (((48 <=? 87 + d) && (87 + d <=? 57))%bool = false) as -> by lia.
    assert (((65 <=? 87 + d) && (87 + d <=? 70))%bool = false) as -> by lia.
    assert (((97 <=? 87 + d) && (87 + d <=? 102))%bool = true) as -> by lia.
    f_equal. lia.
Qed.

Lemma byte_nibbles b : wf_byte b = true -> b / 16 < 16 /\ b mod 16 < 16.
Proof. unfold wf_byte. intros H. split; lia. Qed.

Lemma print_byte_no_dash b :
  forallb (fun c => negb (c =? ch_dash)) (print_byte_upper b) = true.
Proof.
  assert (H : forall d, negb (hexdigit_upper d =? ch_dash) = true).
  { intros d. unfold hexdigit_upper, ch_dash. destruct (d <? 10); lia. }
  unfold print_byte_upper. cbn [forallb]. rewrite !H. reflexivity.
Qed.

Lemma hex_decode_cons2 a b t :
  hex_decode (a :: b :: t) =
  match hexval a, hexval b, hex_decode t with
  | Some x, Some y, Some r => Some ((x * 16 + y) :: r)
  | _, _, _ => None
  end.
Proof. reflexivity. Qed.

Lemma hex_decode_byte x y b t r :
  hexval x = Some (b / 16) -> hexval y = Some (b mod 16) -> hex_decode t = Some r ->
  hex_decode (x :: y :: t) = Some (b :: r).
Proof.
  intros Hx Hy Ht. rewrite hex_decode_cons2, Hx, Hy, Ht, N.mul_comm, <- N.div_mod'. reflexivity.
Qed.

Lemma hex_decode_print bs :
  forallb wf_byte bs = true ->
  hex_decode (concat (map print_byte_upper bs)) = Some bs.
Proof.
  induction bs as [|b t IH]; intros H; [reflexivity|].
  cbn [forallb] in H. apply andb_true_iff in H as [Hb Ht].
  destruct (byte_nibbles _ Hb) as [H1 H2].
  cbn [map concat]. unfold print_byte_upper at 1. cbn [app].
  apply hex_decode_byte; [apply hexval_upper, H1 | apply hexval_upper, H2 | exact (IH Ht)].
Qed.

Lemma filter_join (p : N -> bool) sep parts :
  filter p sep = [] ->
  (forall x, In x parts -> filter p x = x) ->
  filter p (join sep parts) = concat parts.
Proof.
  intros Hsep. induction parts as [|x rest IH]; intros Hall; [reflexivity|].
  destruct rest as [|y rest'].
  - cbn [join concat]. rewrite app_nil_r. apply Hall. left; reflexivity.
  - change (join sep (x :: y :: rest')) with (x ++ sep ++ join sep (y :: rest')).
    rewrite !filter_app, Hsep. cbn [app].
    change (concat (x :: y :: rest')) with (x ++ concat (y :: rest')).
    f_equal.
    + apply Hall. left; reflexivity.
    + apply IH. intros z Hz. apply Hall. right; exact Hz.
Qed.

Definition print_of_bytes (bs : list N) : text :=
  match bs with
  | [] => [ch_dash; ch_dash]
  | b :: t => join [ch_dash] (map print_byte_upper (b :: t))
  end.

Lemma hex_print_of_bytes h : hex_print h = print_of_bytes (bytes h).
Proof. reflexivity. Qed.

Lemma from_str_print_of_bytes bs :
  forallb wf_byte bs = true ->
  hex_from_str (print_of_bytes bs) = Some (from_vec bs).
Proof.
  intros H. unfold hex_from_str. destruct bs as [|b t]; [reflexivity|].
  unfold print_of_bytes. rewrite filter_join.
  - rewrite hex_decode_print by exact H. reflexivity.
  - reflexivity.
  - intros x Hx. apply in_map_iff in Hx as (c & <- & _).
    apply filter_id, forallb_forall, print_byte_no_dash.
Qed.

(** one step of [be_to_N] on the bytes of [n]: after the byte of weight [c]
    the accumulator is [n / c] *)
Lemma be_step n c c' : c <> 0 -> c' = c * 256 -> n / c' * 256 + (n / c) mod 256 = n / c.
Proof.
  intros Hc ->. rewrite <- N.div_div, N.mul_comm by (exact Hc || discriminate).
  symmetry. apply N.div_mod'.
Qed.

Lemma be8_roundtrip n : n < two64 -> be_to_N (N_to_be8 n) = n.
Proof.
  intros H. unfold N_to_be8, be_to_N. cbn [fold_left].
  rewrite <- (N.div_small n two64 H).  (* the accumulator starts as [n / 2^64] *)
  rewrite !be_step by (discriminate || reflexivity).
  (* [n / 256 * 256 + n mod 256] *)
  rewrite N.mul_comm. symmetry. apply N.div_mod'.
Qed.

Lemma be8_wf n : forallb wf_byte (N_to_be8 n) = true.
Proof.
  assert (H : forall x, wf_byte (x mod 256) = true).
  { intros x. apply N.ltb_lt, N.mod_lt. discriminate. }
  unfold N_to_be8. cbn [forallb]. rewrite !H. reflexivity.
Qed.

Lemma f64_roundtrip w :
  w < two64 -> hex_to_f64_bits (hex_from_f64_bits w) = Some w.
Proof.
  intros Hw. unfold hex_to_f64_bits, hex_from_f64_bits.
  rewrite bytes_from_slice, N.mod_small, be8_roundtrip by exact Hw. reflexivity.
Qed.

Lemma f64_wf w : wf_hex (hex_from_f64_bits w) = true.
Proof. apply wf_from_slice, be8_wf. Qed.

Lemma f64_len h : hex_to_f64_bits h = None <-> length (bytes h) <> 8%nat.
Proof.
  unfold hex_to_f64_bits. destruct (Nat.eqb_spec (length (bytes h)) 8) as [E|E];
    split; congruence.
Qed.

(** [i64] is [f64] read through two's complement: every fact about the
    [i64] conversions is the [f64] fact seen through [to_i64_bits] and
    [from_i64_bits]. *)

Definition i64_of_bits (u : N) : Z :=
  if u <? two63 then Z.of_N u else (Z.of_N u - Z.of_N two64)%Z.

Definition bits_of_i64 (z : Z) : N := Z.to_N (z mod Z.of_N two64).

Lemma to_i64_bits h : hex_to_i64 h = option_map i64_of_bits (hex_to_f64_bits h).
Proof.
  unfold hex_to_i64, hex_to_f64_bits. destruct (length (bytes h) =? 8)%nat; reflexivity.
Qed.

Lemma bits_of_i64_lt z : bits_of_i64 z < two64.
Proof.
  unfold bits_of_i64. destruct (Z.mod_pos_bound z (Z.of_N two64)) as [H0 H1]; [reflexivity|].
  apply N2Z.inj_lt. rewrite Z2N.id by exact H0. exact H1.
Qed.

Lemma from_i64_bits z : hex_from_i64 z = hex_from_f64_bits (bits_of_i64 z).
Proof.
  unfold hex_from_f64_bits. rewrite N.mod_small by apply bits_of_i64_lt. reflexivity.
Qed.

Lemma i64_of_bits_of_i64 z :
  (- (2 ^ 63) <= z < 2 ^ 63)%Z -> i64_of_bits (bits_of_i64 z) = z.
Proof.
  unfold i64_of_bits, bits_of_i64, two63, two64. cbn [Z.of_N]. intros Hz.
  destruct (_ <? _) eqn:E; lia.
Qed.

Lemma i64_roundtrip z :
  (- (2 ^ 63) <= z < 2 ^ 63)%Z -> hex_to_i64 (hex_from_i64 z) = Some z.
Proof.
  intros Hz. rewrite to_i64_bits, from_i64_bits, f64_roundtrip by apply bits_of_i64_lt.
  cbn [option_map]. rewrite i64_of_bits_of_i64 by exact Hz. reflexivity.
Qed.

Lemma i64_wf z : wf_hex (hex_from_i64 z) = true.
Proof. rewrite from_i64_bits. apply f64_wf. Qed.

Lemma i64_len h : hex_to_i64 h = None <-> length (bytes h) <> 8%nat.
Proof.
  rewrite to_i64_bits, <- f64_len. destruct (hex_to_f64_bits h); cbn [option_map];
    split; congruence.
Qed.
