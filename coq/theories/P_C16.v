(** * P_C16: property C16 of the sodg verification.

    "a.concat(b) holds exactly the bytes of a followed by the bytes of b, for
    every a and b in either representation, and leaves a and b unchanged."

    The model is functional, so "leaves a and b unchanged" holds by
    construction.  The real code violates the first part in one class of
    inputs, [KnownC16] below (an inline [a] with fewer than eight used bytes
    whose concatenation does not fit inline: the spill arm copies all
    eight array bytes, padding included).  The model reproduces this on
    purpose; it is recorded as a known finding.  Outside that class the
    property holds exactly; inside it the theorems say what happens instead.

    [KnownC16] and [known_c16] are defined in HexFacts.v and restated here by
    [C16_known_def] and [C16_known_reflect].  What [concat] returns on every
    pair of operands is [concat_bytes] of HexFacts.v; the theorems below are
    its two halves. *)

From Sodg Require Import Hex HexFacts.

Theorem C16_known_def :
  forall a b,
    KnownC16 a b <->
    exists arr l, a = HBytes arr l /\ l < 8 /\ 8 < l + hex_len b.
Proof. reflexivity. Qed.

Check C16_known_def :
  forall a b,
    KnownC16 a b <->
    exists arr l, a = HBytes arr l /\ l < 8 /\ 8 < l + hex_len b.
Print Assumptions C16_known_def.

Theorem C16_known_bool_def :
  forall a b,
    known_c16 a b =
    match a with
    | HVector _ => false
    | HBytes _ l => (l <? 8) && (8 <? l + hex_len b)
    end.
Proof. reflexivity. Qed.

Check C16_known_bool_def :
  forall a b,
    known_c16 a b =
    match a with
    | HVector _ => false
    | HBytes _ l => (l <? 8) && (8 <? l + hex_len b)
    end.
Print Assumptions C16_known_bool_def.

Theorem C16_known_reflect :
  forall a b, known_c16 a b = true <-> KnownC16 a b.
Proof. exact known_c16_spec. Qed.

Check C16_known_reflect :
  forall a b, known_c16 a b = true <-> KnownC16 a b.
Print Assumptions C16_known_reflect.

Theorem C16_exact_outside :
  forall a b,
    wf_hex a = true -> wf_hex b = true -> ~ KnownC16 a b ->
    bytes (hex_concat a b) = bytes a ++ bytes b /\
    wf_hex (hex_concat a b) = true.
Proof.
  intros a b Wa Wb NK. split; [|apply concat_wf; assumption].
  rewrite concat_bytes by assumption.
  destruct (known_c16 a b) eqn:K; [|reflexivity].
  apply known_c16_spec in K. contradiction.
Qed.

Check C16_exact_outside :
  forall a b,
    wf_hex a = true -> wf_hex b = true -> ~ KnownC16 a b ->
    bytes (hex_concat a b) = bytes a ++ bytes b /\
    wf_hex (hex_concat a b) = true.
Print Assumptions C16_exact_outside.

Theorem C16_inside_characterised :
  forall a b,
    wf_hex a = true -> wf_hex b = true -> KnownC16 a b ->
    exists arr l,
      a = HBytes arr l /\
      hex_concat a b = HVector (arr ++ bytes b) /\
      bytes (hex_concat a b) = bytes a ++ skipn l arr ++ bytes b.
Proof.
  intros a b Wa Wb K. pose proof (concat_bytes a b Wa Wb) as B.
  rewrite (proj2 (known_c16_spec a b) K) in B.
  destruct K as (arr & l & -> & _ & H). exists arr, l.
  split; [reflexivity|]. split; [|exact B].
  cbn [hex_concat]. unfold HEX_SIZE. rewrite (proj2 (Nat.leb_gt _ _) H). reflexivity.
Qed.

Check C16_inside_characterised :
  forall a b,
    wf_hex a = true -> wf_hex b = true -> KnownC16 a b ->
    exists arr l,
      a = HBytes arr l /\
      hex_concat a b = HVector (arr ++ bytes b) /\
      bytes (hex_concat a b) = bytes a ++ skipn l arr ++ bytes b.
Print Assumptions C16_inside_characterised.

Theorem C16_inside_is_wrong :
  forall a b,
    wf_hex a = true -> wf_hex b = true -> KnownC16 a b ->
    bytes (hex_concat a b) <> bytes a ++ bytes b.
Proof.
  intros a b Wa Wb K.
  rewrite concat_bytes, (proj2 (known_c16_spec a b) K) by assumption.
  destruct K as (arr & l & -> & L & _). apply wf_HBytes_iff in Wa as (Ha & _).
  (* the padding [skipn l arr] has [8 - l > 0] entries *)
  intros C. apply app_inv_head, (f_equal (@length N)) in C. cbn [padding] in C.
  rewrite app_length, skipn_length in C. lia.
Qed.

Check C16_inside_is_wrong :
  forall a b,
    wf_hex a = true -> wf_hex b = true -> KnownC16 a b ->
    bytes (hex_concat a b) <> bytes a ++ bytes b.
Print Assumptions C16_inside_is_wrong.

Theorem C16_class_inhabited :
  exists a b, wf_hex a = true /\ wf_hex b = true /\ KnownC16 a b.
Proof.
  exists (HBytes [1;2;0;0;0;0;0;0]%N 2), (HVector [3;4;5;6;7;8;9]%N).
  split; [reflexivity|]. split; [reflexivity|].
  apply known_c16_spec. reflexivity.
Qed.

Check C16_class_inhabited :
  exists a b, wf_hex a = true /\ wf_hex b = true /\ KnownC16 a b.
Print Assumptions C16_class_inhabited.

(** ** the hypotheses are satisfiable *)

(** the witness of [C16_class_inhabited] *)
Example ex_known_witness :
  wf_hex (HBytes [1;2;0;0;0;0;0;0]%N 2) = true /\
  wf_hex (HVector [3;4;5;6;7;8;9]%N) = true /\
  known_c16 (HBytes [1;2;0;0;0;0;0;0]%N 2) (HVector [3;4;5;6;7;8;9]%N) = true.
Proof. vm_compute. repeat split. Qed.

(** the wrong result: six padding zeros between "01-02" and "03-..-09" *)
Example ex_known_wrong_result :
  hex_concat (HBytes [1;2;0;0;0;0;0;0]%N 2) (HVector [3;4;5;6;7;8;9]%N) =
  HVector [1;2;0;0;0;0;0;0;3;4;5;6;7;8;9]%N.
Proof. vm_compute. reflexivity. Qed.

Example ex_known_expected :
  bytes (HBytes [1;2;0;0;0;0;0;0]%N 2) ++ bytes (HVector [3;4;5;6;7;8;9]%N) =
  [1;2;3;4;5;6;7;8;9]%N.
Proof. vm_compute. reflexivity. Qed.

(** non-zero padding leaks into the result in the same way *)
Example ex_known_wrong_padding :
  hex_concat (HBytes [1;2;255;254;7;7;7;7]%N 2) (HBytes [3;4;5;6;7;8;9;0]%N 7) =
  HVector [1;2;255;254;7;7;7;7;3;4;5;6;7;8;9]%N.
Proof. vm_compute. reflexivity. Qed.

(** outside the class: inline + inline that fits, full inline + anything,
    heap + anything *)
Example ex_outside_fits :
  known_c16 (HBytes [1;2;255;254;7;7;7;7]%N 2) (HBytes [3;4;5;9;9;9;9;9]%N 3) = false /\
  hex_concat (HBytes [1;2;255;254;7;7;7;7]%N 2) (HBytes [3;4;5;9;9;9;9;9]%N 3) =
  HBytes [1;2;3;4;5;7;7;7]%N 5.
Proof. vm_compute. split; reflexivity. Qed.

Example ex_outside_full :
  known_c16 (HBytes [1;2;3;4;5;6;7;8]%N 8) (HVector [9]%N) = false /\
  hex_concat (HBytes [1;2;3;4;5;6;7;8]%N 8) (HVector [9]%N) =
  HVector [1;2;3;4;5;6;7;8;9]%N.
Proof. vm_compute. split; reflexivity. Qed.

Example ex_outside_heap :
  known_c16 (HVector [1;2]%N) (HVector [3;4;5;6;7;8;9]%N) = false /\
  hex_concat (HVector [1;2]%N) (HVector [3;4;5;6;7;8;9]%N) =
  HVector [1;2;3;4;5;6;7;8;9]%N.
Proof. vm_compute. split; reflexivity. Qed.
