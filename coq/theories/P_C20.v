(** * P_C20: property C20 of the sodg verification.

    "inspect(v) terminates on every graph, cyclic or not, and lists every
    edge of every vertex reachable from v exactly once.  Debug/Display list
    exactly the present vertices with all their edges and data, and
    v_print(v) shows the data marker exactly when v has data and lists
    exactly v's labels."

    The printers are modelled as a document plus a renderer (Print.v); the
    theorems speak about the documents:
    - [inspect_doc g v] is the list of printed lines, each an [iline]
      (depth, source vertex, label, target, and the flag "printed with an
      ellipsis and not expanded");
    - [debug_doc g] has one [dbg_vertex] (id, edges, optional data) per
      printed vertex line;
    - [vprint_doc g v] is the pair (data marker shown?, labels listed).
    [reach p g v u] (Reach.v) is reachability along edges accepted by [p];
    [ptrue] accepts every edge.  [closed g v] says that following edges from
    [v] never leaves the slots [0 .. cap-1] of the graph, i.e. that inspect
    does not hit the boundary assertion of [emap]; see [C20_def_closed].
    The proofs are in PrintFacts.v and, for reachable graphs, Wf.v. *)

From Sodg Require Import PrintFacts Wf.

(** ** the definitions the statements use, unfolded *)

Theorem C20_def_reach : forall p g v w,
  reach p g v w <->
  w = v \/ exists u a, reach p g v u /\ In (a, w) (edg g u) /\ p u w a = true.
Proof. exact reach_unfold. Qed.
Check C20_def_reach : forall p g v w,
  reach p g v w <->
  w = v \/ exists u a, reach p g v u /\ In (a, w) (edg g u) /\ p u w a = true.
Print Assumptions C20_def_reach.

Theorem C20_def_closed : forall g v,
  closed g v <->
  v < cap_of g /\
  forall u a w, reach ptrue g v u -> In (a, w) (edg g u) -> w < cap_of g.
Proof. exact closed_unfold. Qed.
Check C20_def_closed : forall g v,
  closed g v <->
  v < cap_of g /\
  forall u a w, reach ptrue g v u -> In (a, w) (edg g u) -> w < cap_of g.
Print Assumptions C20_def_closed.

(** ** inspect *)

(** (a) termination: the result is a listing, in particular neither a panic
    nor [OutOfFuel] *)
Theorem C20_inspect_terminates : forall g v,
  closed g v -> exists ls, inspect_doc g v = Ok ls.
Proof. intros g v Hc. destruct (inspect_doc_spec g v Hc) as (ls & _ & E & _). eauto. Qed.
Check C20_inspect_terminates : forall g v,
  closed g v -> exists ls, inspect_doc g v = Ok ls.
Print Assumptions C20_inspect_terminates.

(** whatever the graph, the fuel of the model is never the reason why
    [inspect_doc] stops: the outcome is a listing or the boundary panic *)
Theorem C20_inspect_never_out_of_fuel : forall g v,
  (exists ls, inspect_doc g v = Ok ls) \/ inspect_doc g v = Panic PBoundary.
Proof. exact inspect_total. Qed.
Check C20_inspect_never_out_of_fuel : forall g v,
  (exists ls, inspect_doc g v = Ok ls) \/ inspect_doc g v = Panic PBoundary.
Print Assumptions C20_inspect_never_out_of_fuel.

(** (b) exactly once: the reachable vertices can be enumerated without
    repetition, and for every such enumeration [rs] the edges shown by the
    lines are, up to order, the out-edges of the vertices of [rs] -- as
    lists, so nothing is listed twice, nothing is missing, nothing else is
    listed *)
Theorem C20_inspect_exactly_once : forall g v ls,
  closed g v -> inspect_doc g v = Ok ls ->
  (exists rs, NoDup rs /\ forall u, In u rs <-> reach ptrue g v u)
  /\ forall rs, NoDup rs -> (forall u, In u rs <-> reach ptrue g v u) ->
       Permutation
         (map (fun l => (il_from l, il_label l, il_to l)) ls)
         (flat_map (fun u => map (fun e : label * nat => (u, fst e, snd e)) (edg g u)) rs).
Proof.
  intros g v ls Hc E. split.
  - destruct (inspect_doc_spec g v Hc) as (_ & rs & _ & N & Hr & _). eauto.
  - intros rs N Hr. apply (inspect_doc_listing g v ls rs); assumption.
Qed.
Check C20_inspect_exactly_once : forall g v ls,
  closed g v -> inspect_doc g v = Ok ls ->
  (exists rs, NoDup rs /\ forall u, In u rs <-> reach ptrue g v u)
  /\ forall rs, NoDup rs -> (forall u, In u rs <-> reach ptrue g v u) ->
       Permutation
         (map (fun l => (il_from l, il_label l, il_to l)) ls)
         (flat_map (fun u => map (fun e : label * nat => (u, fst e, snd e)) (edg g u)) rs).
Print Assumptions C20_inspect_exactly_once.

(** (c) the ellipsis: [v] followed by the targets of the lines printed without
    ellipsis is, up to order, an enumeration without repetition of the
    reachable vertices: every reachable vertex other than the root is expanded
    under exactly one line, all other lines that point to it carry the
    ellipsis, and no line without ellipsis points back to the root *)
Theorem C20_inspect_skip_flag : forall g v ls,
  closed g v -> inspect_doc g v = Ok ls ->
  forall rs, NoDup rs -> (forall u, In u rs <-> reach ptrue g v u) ->
    Permutation (v :: map il_to (filter (fun l => negb (il_skip l)) ls)) rs.
Proof. intros g v ls Hc E rs N Hr. apply (inspect_doc_listing g v ls rs); assumption. Qed.
Check C20_inspect_skip_flag : forall g v ls,
  closed g v -> inspect_doc g v = Ok ls ->
  forall rs, NoDup rs -> (forall u, In u rs <-> reach ptrue g v u) ->
    Permutation (v :: map il_to (filter (fun l => negb (il_skip l)) ls)) rs.
Print Assumptions C20_inspect_skip_flag.

(** ** Debug / Display *)

Theorem C20_debug : forall g,
  map dv_id (dd_vertices (debug_doc g)) = op_keys g
  /\ forall d, In d (dd_vertices (debug_doc g)) ->
       dv_edges d = edg g (dv_id d)
       /\ dv_data d = if has_data g (dv_id d) then Some (dat g (dv_id d)) else None.
Proof. exact debug_doc_vertices. Qed.
Check C20_debug : forall g,
  map dv_id (dd_vertices (debug_doc g)) = op_keys g
  /\ forall d, In d (dd_vertices (debug_doc g)) ->
       dv_edges d = edg g (dv_id d)
       /\ dv_data d = if has_data g (dv_id d) then Some (dat g (dv_id d)) else None.
Print Assumptions C20_debug.

Theorem C20_keys_present : forall g v,
  In v (op_keys g) <-> v < cap_of g /\ tag g v <> 0.
Proof. exact in_op_keys. Qed.
Check C20_keys_present : forall g v,
  In v (op_keys g) <-> v < cap_of g /\ tag g v <> 0.
Print Assumptions C20_keys_present.

(** each present vertex has exactly one line *)
Theorem C20_keys_nodup : forall g, NoDup (op_keys g).
Proof. exact op_keys_nodup. Qed.
Check C20_keys_nodup : forall g, NoDup (op_keys g).
Print Assumptions C20_keys_nodup.

Theorem C20_def_has_data : forall g v, has_data g v = true <-> prs g v <> PEmpty.
Proof. exact ExportFacts.has_data_spec. Qed.
Check C20_def_has_data : forall g v, has_data g v = true <-> prs g v <> PEmpty.
Print Assumptions C20_def_has_data.

(** ** v_print *)

Theorem C20_vprint : forall g v,
  v < cap_of g -> vprint_doc g v = Ok (has_data g v, map fst (edg g v)).
Proof. exact vprint_doc_ok. Qed.
Check C20_vprint : forall g v,
  v < cap_of g -> vprint_doc g v = Ok (has_data g v, map fst (edg g v)).
Print Assumptions C20_vprint.

(** ** non-vacuity *)

(** the cyclic example graph (cycle 0 -> 1 -> 2 -> 0, a parallel edge 0 -> 1,
    a self loop on 2; Reach.v) is closed, inspect stops on it, lists its five
    edges once each, and expands 1 and 2 once each *)
Example C20_cyclic_inspect :
  closed ex_cyclic 0
  /\ inspect_doc ex_cyclic 0 =
       Ok [ mkIL 0 0 (Alpha 0) 1 false;
            mkIL 1 1 (Greek 945) 2 false;
            mkIL 2 2 (Alpha 0) 0 true;
            mkIL 2 2 (Alpha 5) 2 true;
            mkIL 0 0 (Alpha 1) 1 true ]
  /\ NoDup [0; 1; 2] /\ (forall u, In u [0; 1; 2] <-> reach ptrue ex_cyclic 0 u).
Proof.
  assert (Hc : closed ex_cyclic 0) by (apply closedb_closed; [reflexivity | repeat constructor]).
  (* the listing that [inspect_doc_spec] speaks of is the one evaluation gives *)
  destruct (inspect_doc_spec ex_cyclic 0 Hc) as (ls & rs & E & _ & Hr & _ & P).
  pose proof E as E'. vm_compute in E'. injection E' as <-.
  split; [exact Hc|]. split; [exact E|].
  split; [repeat constructor; simpl; intuition discriminate|].
  intros u. rewrite <- Hr. split; apply Permutation_in; [exact P | apply Permutation_sym, P].
Qed.

(** a graph with an edge to an id beyond the capacity is not closed, and
    inspect panics on it (it does not run out of fuel) *)
Example C20_dangling_inspect :
  let g := set_vtx (op_empty 2) 0 (mkV 1 hex_empty PEmpty [(Alpha 0, 7)]) in
  ~ closed g 0 /\ inspect_doc g 0 = Panic PBoundary.
Proof.
  cbv zeta. split; [|vm_compute; reflexivity].
  intros [_ H]. specialize (H 0 (Alpha 0) 7 (reach_refl _ _ _)).
  assert (H7 : 7 < 2) by (apply H; vm_compute; auto). lia.
Qed.

Example C20_cyclic_debug_vprint :
  map dv_id (dd_vertices (debug_doc ex_cyclic)) = [0; 1; 2]
  /\ map dv_data (dd_vertices (debug_doc ex_cyclic)) = [None; Some (HVector [7%N]); None]
  /\ vprint_doc ex_cyclic 1 = Ok (true, [Greek 945])
  /\ vprint_doc ex_cyclic 0 = Ok (false, [Alpha 1; Alpha 0])
  /\ vprint_doc ex_cyclic 3 = Ok (false, []).
Proof. repeat split; vm_compute; reflexivity. Qed.

(** ** on every graph reached through the interface *)

Theorem C20_reachable_inspect_terminates :
  forall n cap os v,
  within_limits n cap sinit os -> Forall wf_op os -> v < cap ->
  exists g ls, Spec.run n (op_empty cap) os = Ok (g, snd (srun sinit os)) /\ inspect_doc g v = Ok ls.
Proof. exact reachable_inspect_terminates. Qed.

Check C20_reachable_inspect_terminates :
  forall n cap os v,
  within_limits n cap sinit os -> Forall wf_op os -> v < cap ->
  exists g ls, Spec.run n (op_empty cap) os = Ok (g, snd (srun sinit os)) /\ inspect_doc g v = Ok ls.
Print Assumptions C20_reachable_inspect_terminates.
