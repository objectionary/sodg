(** * C10  clone() is an exact, independent copy

    "A clone answers every query as the original does and, given the same
    subsequent calls, keeps doing so, including which vertices get collected
    and which ids next_id() returns.  Mutating either graph never changes any
    answer of the other."

    clone.rs copies the four fields of the graph (the three emaps slot by slot,
    the member stacks by their used prefix, the allocator position); on the
    immutable values of the model that is the identity: [C10_clone_exact].
    Equal states have equal futures, for every continuation:
    [C10_same_future].  Independence (no aliasing between the two Rust values)
    cannot be expressed on immutable values; it is covered by the
    correspondence check only (each copy is mutated while the other is
    observed), see DESIGN.md section 12 -- this property is labelled partial
    there. *)

From Sodg Require Import Spec.

Theorem C10_clone_exact :
  forall g, op_clone g = g.
Proof. reflexivity. Qed.

Check C10_clone_exact :
  forall g, op_clone g = g.
Print Assumptions C10_clone_exact.

Theorem C10_same_future :
  forall n g os, run n (op_clone g) os = run n g os.
Proof. reflexivity. Qed.

Check C10_same_future :
  forall n g os, run n (op_clone g) os = run n g os.
Print Assumptions C10_same_future.

Theorem C10_same_observers :
  forall g,
  op_keys (op_clone g) = op_keys g /\ g_next (op_clone g) = g_next g
  /\ (forall v, op_kids (op_clone g) v = op_kids g v)
  /\ (forall v a, op_kid (op_clone g) v a = op_kid g v a)
  /\ (forall v, op_data (op_clone g) v = op_data g v)
  /\ op_next_id (op_clone g) = op_next_id g.
Proof. repeat split. Qed.

Check C10_same_observers :
  forall g,
  op_keys (op_clone g) = op_keys g /\ g_next (op_clone g) = g_next g
  /\ (forall v, op_kids (op_clone g) v = op_kids g v)
  /\ (forall v a, op_kid (op_clone g) v a = op_kid g v a)
  /\ (forall v, op_data (op_clone g) v = op_data g v)
  /\ op_next_id (op_clone g) = op_next_id g.
Print Assumptions C10_same_observers.

