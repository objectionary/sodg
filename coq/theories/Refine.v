(** * Refine: the model of the code refines the reference model of Spec.v.

    First the reference model alone: what [in_group], [group_members] and
    [alive_groups] say, the read in normal form ([collects], [sstep_data]),
    what next_id() returns.  These are the facts the simulation is proved
    with; the rules call by call, as the properties quote them, are derived
    from them in History.v.

    Then [R g s], relating a state [g] of the model of the code (slots, member
    stacks, counters, sentinels) to a reference state [s] (present set,
    abstract group names, unread flags, last-write maps; its [r_data] is
    phrased with [has_data] of Print.v, "the persistence is not [PEmpty]", and
    read through [data_result]), and [sim_step]: from
    related states a call within the limits as judged on the reference model
    ([pre]) does not panic on the model of the code, returns the reference
    model's result, and leads to related states that satisfy [Inv] again. *)

From Sodg Require Export Inv Print.

(** ** the reference model alone *)

Lemma fupd_eq {A} (f : nat -> A) k x : fupd f k x k = x.
Proof. unfold fupd. rewrite Nat.eqb_refl. reflexivity. Qed.

Lemma fupd_neq {A} (f : nat -> A) k x w : w <> k -> fupd f k x w = f w.
Proof. intros H. unfold fupd. destruct (Nat.eqb_spec k w); [congruence|reflexivity]. Qed.

Lemma in_group_spec s k w :
  in_group s k w = true <-> s_present s w = true /\ s_grp s w = Some k.
Proof.
  unfold in_group. rewrite andb_true_iff.
  destruct (s_grp s w) as [k'|]; [rewrite Nat.eqb_eq|]; split; intros [A B]; split; congruence.
Qed.

Lemma group_members_spec s k w :
  In w (group_members s k) <-> w < s_bound s /\ s_present s w = true /\ s_grp s w = Some k.
Proof. unfold group_members, ids. rewrite filter_In, in_iota, in_group_spec. reflexivity. Qed.

Lemma alive_in s k :
  In k (alive_groups s) <-> exists w, w < s_bound s /\ s_present s w = true /\ s_grp s w = Some k.
Proof.
  unfold alive_groups. rewrite nodup_In, in_concat. split.
  - intros (l & Hl & Hk). apply in_map_iff in Hl as (w & <- & Hw).
    apply in_iota in Hw.
    destruct (s_present s w) eqn:P; [|destruct Hk].
    destruct (s_grp s w) as [k'|] eqn:G; [|destruct Hk].
    destruct Hk as [<-|[]]. exists w. auto.
  - intros (w & H1 & H2 & H3). exists [k]. split; [|left; reflexivity].
    apply in_map_iff. exists w. rewrite H2, H3. split; [reflexivity|apply in_iota, H1].
Qed.

Lemma last_unread_spec s v k :
  existsb (fupd (s_unread s) v false) (group_members s k) = false <->
  forall m, In m (group_members s k) -> m <> v -> s_unread s m = false.
Proof.
  rewrite <- not_true_iff_false, existsb_exists. unfold fupd. split.
  - intros H m Hm Hne. destruct (s_unread s m) eqn:Um; [|reflexivity].
    exfalso. apply H. exists m. split; [exact Hm|].
    destruct (Nat.eqb_spec v m); [congruence|exact Um].
  - intros H (m & Hm & Um). destruct (Nat.eqb_spec v m) as [->|Hne]; [discriminate|].
    rewrite (H m Hm) in Um by congruence. discriminate.
Qed.

Definition mark_read (s : spec) (v : nat) : spec :=
  mkS (s_bound s) (s_present s) (s_grp s) (fupd (s_unread s) v false) (s_edges s) (s_data s)
      (s_alloc s) (s_fresh s).

(** group [k] has been collected *)
Definition without (s : spec) (k : nat) : spec :=
  mkS (s_bound s) (fun w => if in_group s k w then false else s_present s w)
      (fun w => if in_group s k w then None else s_grp s w)
      (s_unread s) (s_edges s) (s_data s) (s_alloc s) (s_fresh s).

(** the group that the read of [v] collects: [v] holds its only unread datum *)
Definition collects (s : spec) (v : nat) : option nat :=
  if s_unread s v then
    match s_grp s v with
    | Some k => if existsb (fupd (s_unread s) v false) (group_members s k) then None else Some k
    | None => None
    end
  else None.

Lemma collects_spec s v k :
  collects s v = Some k <->
  s_unread s v = true /\ s_grp s v = Some k
  /\ forall m, In m (group_members s k) -> m <> v -> s_unread s m = false.
Proof.
  unfold collects. destruct (s_unread s v); [|split; [discriminate|intros [H _]; discriminate]].
  destruct (s_grp s v) as [k'|]; [|split; [discriminate|intros (_ & H & _); discriminate]].
  rewrite <- last_unread_spec. destruct (existsb _ _) eqn:Ex.
  - split; [discriminate|]. intros (_ & [= ->] & H). congruence.
  - split; [intros [= ->]; auto|]. intros (_ & [= ->] & _). reflexivity.
Qed.

Lemma sstep_data s v :
  sstep s (OData v) =
  (match collects s v with
   | Some k => mark_read (without s k) v
   | None => if s_unread s v then mark_read s v else s
   end, RData (s_data s v)).
Proof.
  unfold collects. cbn [sstep]. destruct (s_unread s v); [|reflexivity].
  destruct (s_grp s v); [|reflexivity]. destruct (existsb _ _); reflexivity.
Qed.

(** next_id() inside the limits: the least absent id from the allocator floor on *)
Lemma spec_next_fresh n cap s :
  (forall v, s_present s v = true -> v < s_bound s) ->
  pre n cap s ONext ->
  exists id, sstep s ONext = (mkS (s_bound s) (s_present s) (s_grp s) (s_unread s) (s_edges s)
                                  (s_data s) (S id) (s_fresh s), RId id)
             /\ s_alloc s <= id /\ id < cap /\ s_present s id = false
             /\ (forall w, s_alloc s <= w -> w < id -> s_present s w = true).
Proof.
  intros HB (x & X1 & X2 & X3). cbn [sstep].
  destruct (find (fun w => negb (s_present s w)) (seq (s_alloc s) (S (s_bound s)))) as [id|] eqn:F.
  - exists id. split; [reflexivity|].
    pose proof (find_some _ _ F) as [Hin Hp]. apply in_seq in Hin. apply negb_true_iff in Hp.
    assert (Least : forall w, s_alloc s <= w -> w < id -> s_present s w = true).
    { intros w W1 W2. pose proof (find_seq_least _ _ _ _ F w W1 W2) as Q. cbn beta in Q.
      apply negb_false_iff in Q. exact Q. }
    repeat split; try lia; auto.
    destruct (Nat.lt_ge_cases id cap) as [L|L]; [exact L|]. exfalso.
    assert (s_present s x = true) by (apply Least; lia). congruence.
  - exfalso. set (m := Nat.max (s_alloc s) (s_bound s)).
    assert (Pm : s_present s m = false).
    { destruct (s_present s m) eqn:Q; [|reflexivity]. apply HB in Q. unfold m in Q. lia. }
    eapply find_none with (x := m) in F.
    + cbn beta in F. rewrite Pm in F. discriminate.
    + apply in_seq. unfold m. lia.
Qed.

(** ** the relation *)

Definition present (g : sodg) (v : nat) : bool := negb (tag g v =? 0).

Record R (g : sodg) (s : spec) : Prop := {
  r_bound : s_bound s <= cap_of g;
  r_pres : forall v, s_present s v = present g v;
  r_inb : forall v, s_present s v = true -> v < s_bound s;
  r_ungr : forall v, s_present s v = true -> (s_grp s v = None <-> tag g v = 1);
  r_grp : forall v w, s_present s v = true -> s_present s w = true -> s_grp s v <> None ->
          (s_grp s v = s_grp s w <-> tag g v = tag g w);
  r_fresh : forall v k, s_present s v = true -> s_grp s v = Some k -> k < s_fresh s;
  r_unread : forall v, s_present s v = true -> s_unread s v = is_stored g v;
  r_edges : forall v, s_present s v = true -> s_edges s v = edg g v;
  r_data : forall v, s_present s v = true ->
           s_data s v = if has_data g v then Some (dat g v) else None;
  r_alloc : s_alloc s = g_next g
}.

Arguments r_bound {g s} _.
Arguments r_pres {g s} _ _.
Arguments r_inb {g s} _ _ _.
Arguments r_ungr {g s} _ _ _.
Arguments r_grp {g s} _ _ _ _ _ _.
Arguments r_fresh {g s} _ _ _ _ _.
Arguments r_unread {g s} _ _ _.
Arguments r_edges {g s} _ _ _.
Arguments r_data {g s} _ _ _.
Arguments r_alloc {g s} _.

Lemma present_true g v : present g v = true <-> tag g v <> 0.
Proof. unfold present. destruct (Nat.eqb_spec (tag g v) 0); cbn; split; congruence. Qed.

Lemma present_false g v : present g v = false <-> tag g v = 0.
Proof. unfold present. destruct (Nat.eqb_spec (tag g v) 0); cbn; split; congruence. Qed.

Lemma present_in_keys g v : present g v = true <-> In v (op_keys g).
Proof.
  rewrite present_true, in_op_keys. split; [|tauto]. intros H. split; [apply tag_nonzero_lt|]; exact H.
Qed.

Lemma present_tag g s v : R g s -> s_present s v = true -> tag g v <> 0.
Proof. intros HR H. apply present_true. rewrite <- (r_pres HR). exact H. Qed.

Lemma absent_tag g s v : R g s -> s_present s v = false -> tag g v = 0.
Proof. intros HR H. apply present_false. rewrite <- (r_pres HR). exact H. Qed.

Lemma R_init cap : R (op_empty cap) sinit.
Proof.
  split; cbn [sinit s_bound s_present s_grp s_unread s_edges s_data s_alloc s_fresh];
    try discriminate; try (intros; discriminate).
  - lia.
  - intros v. unfold present. rewrite tag_empty. reflexivity.
  - reflexivity.
Qed.

Lemma grouped_tag n g s v k :
  Inv n g -> R g s -> s_present s v = true -> s_grp s v = Some k -> 2 <= tag g v /\ tag g v < 16.
Proof.
  intros HI HR Hp Hk. pose proof (i_tag HI v) as Lt. pose proof (present_tag g s v HR Hp) as N0.
  assert (N1 : tag g v <> 1).
  { intros E. apply (r_ungr HR v Hp) in E. congruence. }
  lia.
Qed.

(** ** abstract groups and member lists *)

Lemma group_elems n g s v k :
  Inv n g -> R g s -> s_present s v = true -> s_grp s v = Some k ->
  forall w, In w (group_members s k) <-> In w (members g (tag g v)).
Proof.
  intros HI HR Hp Hk w. destruct (grouped_tag n g s v k HI HR Hp Hk) as [T1 T2].
  assert (Hnn : s_grp s v <> None) by congruence.
  rewrite group_members_spec, (i_mem HI (tag g v) w T1 T2). split.
  - intros (_ & Hpw & Hkw). symmetry. apply (r_grp HR v w Hp Hpw Hnn). congruence.
  - intros Ht.
    assert (Hpw : s_present s w = true).
    { rewrite (r_pres HR). apply present_true. lia. }
    split; [apply (r_inb HR); exact Hpw|]. split; [exact Hpw|].
    rewrite <- Hk. symmetry. apply (r_grp HR v w Hp Hpw Hnn). congruence.
Qed.

Lemma group_size n g s v k :
  Inv n g -> R g s -> s_present s v = true -> s_grp s v = Some k ->
  length (members g (tag g v)) <= length (group_members s k).
Proof.
  intros HI HR Hp Hk. destruct (grouped_tag n g s v k HI HR Hp Hk) as [T1 T2].
  apply NoDup_incl_length; [apply (i_nodup HI); assumption|].
  intros w Hw. apply (group_elems n g s v k HI HR Hp Hk). exact Hw.
Qed.

Lemma in_group_mem n g s v k :
  Inv n g -> R g s -> s_present s v = true -> s_grp s v = Some k ->
  forall w, in_group s k w = mem w (members g (tag g v)).
Proof.
  intros HI HR Hp Hk w. apply eq_true_iff_eq.
  rewrite in_group_spec, mem_In, <- (group_elems n g s v k HI HR Hp Hk), group_members_spec.
  split; [|tauto]. intros [A B]. split; [apply (r_inb HR); exact A|]. split; assumption.
Qed.

(** ** from the limits of the reference model to the concrete preconditions *)

(** pigeonhole: were all 14 group slots occupied, their first members would
    carry 14 different names of alive groups *)
Lemma free_slot n g s :
  Inv n g -> R g s -> length (alive_groups s) < 14 -> exists b, first_empty g = Some b.
Proof.
  intros HI HR Hlt. destruct (first_empty g) as [b|] eqn:F; [eauto|]. exfalso.
  assert (Hne : forall b, b < 16 -> members g b <> []).
  { intros b Hb. apply first_empty_none; [exact F|]. rewrite (i_nb HI). exact Hb. }
  set (rep := fun b => hd 0 (members g b)).
  set (name := fun b => match s_grp s (rep b) with Some k => k | None => 0 end).
  assert (Hrep : forall b, 2 <= b -> b < 16 ->
                 tag g (rep b) = b /\ s_present s (rep b) = true /\ s_grp s (rep b) = Some (name b)).
  { intros b H1 H2. unfold name, rep.
    destruct (members g b) as [|x t] eqn:E; [exfalso; apply (Hne b H2 E)|]. cbn [hd].
    assert (Tx : tag g x = b) by (apply (i_mem HI b x H1 H2); rewrite E; left; reflexivity).
    assert (Px : s_present s x = true) by (rewrite (r_pres HR); apply present_true; lia).
    split; [exact Tx|]. split; [exact Px|].
    destruct (s_grp s x) as [k|] eqn:G; [reflexivity|].
    apply (r_ungr HR x Px) in G. lia. }
  assert (Hnd : NoDup (map name (seq 2 14))).
  { apply NoDup_map_inj; [apply seq_NoDup|].
    intros x y Hx Hy E. apply in_seq in Hx, Hy.
    destruct (Hrep x) as (T1 & P1 & G1); try lia. destruct (Hrep y) as (T2 & P2 & G2); try lia.
    rewrite <- T1, <- T2. apply (r_grp HR (rep x) (rep y) P1 P2); congruence. }
  assert (Hincl : incl (map name (seq 2 14)) (alive_groups s)).
  { intros k Hk. apply in_map_iff in Hk as (b & <- & Hb). apply in_seq in Hb.
    destruct (Hrep b) as (T1 & P1 & G1); try lia.
    apply alive_in. exists (rep b). split; [apply (r_inb HR); exact P1|]. split; assumption. }
  pose proof (NoDup_incl_length Hnd Hincl) as L. rewrite map_length, seq_length in L. lia.
Qed.

Lemma has_label_get e a : has_label e a = true <-> mm_get e a <> None.
Proof. unfold has_label. destruct (mm_get e a); split; congruence. Qed.

Lemma pre_cpre n g s o :
  Inv n g -> R g s -> pre n (cap_of g) s o -> cpre n g o.
Proof.
  intros HI HR. destruct o as [v|v1 v2 a|v d|v| |v a|v|]; cbn [pre cpre]; auto.
  - intros (P1 & P2 & Hne & Hroom & Hgrp).
    split; [exact (present_tag g s v1 HR P1)|]. split; [exact (present_tag g s v2 HR P2)|].
    split; [exact Hne|]. split.
    { unfold room. rewrite <- (r_edges HR v1 P1). destruct Hroom as [H|H]; [left; apply has_label_get; exact H|right; exact H]. }
    split; [|split].
    + intros E1 E2. apply (r_ungr HR v1 P1) in E1. apply (r_ungr HR v2 P2) in E2.
      rewrite E1, E2 in Hgrp. apply (free_slot n g s HI HR Hgrp).
    + intros E1 N2. apply (r_ungr HR v1 P1) in E1. rewrite E1 in Hgrp.
      destruct (s_grp s v2) as [k|] eqn:G2.
      * pose proof (group_size n g s v2 k HI HR P2 G2). lia.
      * exfalso. apply N2. apply (r_ungr HR v2 P2). exact G2.
    + intros N1 E2. apply (r_ungr HR v2 P2) in E2. rewrite E2 in Hgrp.
      destruct (s_grp s v1) as [k|] eqn:G1.
      * pose proof (group_size n g s v1 k HI HR P1 G1). lia.
      * exfalso. apply N1. apply (r_ungr HR v1 P1). exact G1.
  - apply (present_tag g s v HR).
  - apply (present_tag g s v HR).
  - intros (id & H1 & H2 & H3). exists id. rewrite <- (r_alloc HR). split; [exact H1|]. split; [exact H2|].
    apply (absent_tag g s id HR H3).
  - apply (present_tag g s v HR).
  - apply (present_tag g s v HR).
Qed.

(** ** [R] only looks at the accessors *)

(** with the tags the whole grouping stays; what is stored at the vertices
    may change along *)
Lemma R_same_tags g g' s u e d al :
  R g s -> cap_of g' = cap_of g -> (forall w, tag g' w = tag g w) ->
  (forall w, s_present s w = true -> u w = is_stored g' w) ->
  (forall w, s_present s w = true -> e w = edg g' w) ->
  (forall w, s_present s w = true -> d w = if has_data g' w then Some (dat g' w) else None) ->
  al = g_next g' ->
  R g' (mkS (s_bound s) (s_present s) (s_grp s) u e d al (s_fresh s)).
Proof.
  intros HR C T Un Ed Da Al.
  split; cbn [s_bound s_present s_grp s_unread s_edges s_data s_alloc s_fresh]; auto.
  - rewrite C. apply (r_bound HR).
  - intros v. unfold present. rewrite T. apply (r_pres HR).
  - apply (r_inb HR).
  - intros v. rewrite T. apply (r_ungr HR).
  - intros v w. rewrite !T. apply (r_grp HR).
  - apply (r_fresh HR).
Qed.

Lemma R_ext g g' s :
  R g s -> cap_of g' = cap_of g -> g_next g' = g_next g ->
  (forall w, tag g' w = tag g w) -> (forall w, prs g' w = prs g w) ->
  (forall w, dat g' w = dat g w) -> (forall w, edg g' w = edg g w) ->
  R g' s.
Proof.
  intros HR C X T P D E. destruct s as [b p gr u e d al f].
  apply (R_same_tags g g' _ u e d al HR C T).
  - intros v Hv. rewrite (is_stored_prs g g' v (P v)). apply (r_unread HR v Hv).
  - intros v Hv. rewrite E. apply (r_edges HR v Hv).
  - intros v Hv. unfold has_data. rewrite P, D. apply (r_data HR v Hv).
  - rewrite X. apply (r_alloc HR).
Qed.

(** ** the simulation, call by call *)

Definition sim_goal (n : nat) (g : sodg) (s : spec) (o : op) : Prop :=
  exists g', step n g o = Ok (g', snd (sstep s o)) /\ Inv n g' /\ R g' (fst (sstep s o)).

(** [Inv] of the new state comes from [step_inv]: each call below has to
    show the result and [R] only *)
Lemma sim_goal_intro n g s o g' :
  Inv n g -> cpre n g o -> step n g o = Ok (g', snd (sstep s o)) -> R g' (fst (sstep s o)) ->
  sim_goal n g s o.
Proof.
  intros HI Hc A HR. destruct (step_inv n g o HI Hc) as (g2 & r & A2 & I2).
  rewrite A in A2. injection A2 as <- _. exists g'. auto.
Qed.

(** [a = b] or not, with the tests [a =? b] and [b =? a] of the goal decided *)
Ltac split_eq a b :=
  let H := fresh "Hne" in
  destruct (Nat.eq_dec a b) as [->|H];
  [ rewrite ?Nat.eqb_refl
  | rewrite ?(proj2 (Nat.eqb_neq a b) H), ?(proj2 (Nat.eqb_neq b a) (not_eq_sym H)) ].

Lemma sim_add n g s v :
  Inv n g -> R g s -> v < cap_of g -> sim_goal n g s (OAdd v).
Proof.
  intros HI HR Hv.
  destruct (add_effect g v Hv) as (g' & A & T & P & D & E & _ & _ & X).
  pose proof (se_cap _ _ X) as X1. pose proof (se_next _ _ X) as X4.
  apply (sim_goal_intro n g s (OAdd v) g' HI Hv); cbn [step sstep]; [rewrite A; destruct (s_present s v); reflexivity|].
  destruct (s_present s v) eqn:Pv; cbn [fst].
  - (* present: nothing changes *)
    assert (Tv : (tag g v =? 0) = false) by (apply Nat.eqb_neq; exact (present_tag g s v HR Pv)).
    apply (R_ext g g' s HR X1 X4); intros w; [rewrite T|rewrite P|rewrite D|rewrite E];
      rewrite Tv, andb_false_r; reflexivity.
  - assert (Tv : (tag g v =? 0) = true) by (apply Nat.eqb_eq; exact (absent_tag g s v HR Pv)).
    destruct HR as [B Pr Ib U G F Un Ed Da Al].
    assert (Tw : forall w, tag g' w = if w =? v then 1 else tag g w).
    { intros w. rewrite T, Tv, andb_true_r. reflexivity. }
    assert (Pw : forall w, prs g' w = if w =? v then PEmpty else prs g w).
    { intros w. rewrite P, Tv, andb_true_r. reflexivity. }
    split; cbn [s_bound s_present s_grp s_unread s_edges s_data s_alloc s_fresh].
    + rewrite X1. lia.
    + intros w. unfold present, fupd. rewrite Tw. split_eq w v; [reflexivity|apply Pr].
    + intros w. unfold fupd. split_eq w v; [lia|]. intros H. apply Ib in H. lia.
    + intros w. unfold fupd. rewrite Tw. split_eq w v; [tauto|apply U].
    + intros w1 w2. unfold fupd. rewrite !Tw. split_eq w1 v; [congruence|].
      split_eq w2 v; [|apply G].
      intros H1 _ H3.
      assert (tag g w1 <> 1) by (intros Q; apply H3; apply (U w1 H1); exact Q).
      split; [congruence|lia].
    + intros w k. unfold fupd. split_eq w v; [congruence|apply F].
    + intros w. unfold is_stored, fupd. rewrite Pw. split_eq w v; [reflexivity|]. intros H. apply (Un w H).
    + intros w. unfold fupd. rewrite E, Tv, andb_true_r. split_eq w v; [reflexivity|apply Ed].
    + intros w. unfold has_data, fupd. rewrite Pw, D, Tv, andb_true_r. split_eq w v; [reflexivity|apply Da].
    + congruence.
Qed.

Lemma R_bind_frame g g' s v1 v2 a grp' fresh' :
  R g s -> s_present s v1 = true -> same_except_vertices g g' ->
  (forall w, present g' w = present g w) ->
  (forall w, prs g' w = prs g w) -> (forall w, dat g' w = dat g w) ->
  (forall w, edg g' w = if w =? v1 then spec_insert (edg g v1) a v2 else edg g w) ->
  (forall v, s_present s v = true -> (grp' v = None <-> tag g' v = 1)) ->
  (forall v w, s_present s v = true -> s_present s w = true -> grp' v <> None ->
               (grp' v = grp' w <-> tag g' v = tag g' w)) ->
  (forall v k, s_present s v = true -> grp' v = Some k -> k < fresh') ->
  R g' (mkS (s_bound s) (s_present s) grp' (s_unread s)
            (fupd (s_edges s) v1 (spec_insert (s_edges s v1) a v2)) (s_data s) (s_alloc s) fresh').
Proof.
  intros HR P1 [X1 X2 X3 X4] Pr' P D E U' G' F'. destruct HR as [B Pr Ib U G F Un Ed Da Al].
  split; cbn [s_bound s_present s_grp s_unread s_edges s_data s_alloc s_fresh]; auto.
  - congruence.
  - intros w. rewrite Pr'. apply Pr.
  - intros w Hw. rewrite (Un w Hw). symmetry. apply is_stored_prs. apply P.
  - intros w Hw. unfold fupd. rewrite E. rewrite (Ed v1 P1).
    rewrite (Nat.eqb_sym v1 w). destruct (w =? v1); [reflexivity|apply Ed; exact Hw].
  - intros w Hw. rewrite (Da w Hw). unfold has_data. rewrite P, D. reflexivity.
  - congruence.
Qed.

Lemma present_same_tag g g' :
  (forall w, tag g' w = 0 <-> tag g w = 0) -> forall w, present g' w = present g w.
Proof.
  intros H w. apply eq_true_iff_eq. rewrite !present_true, H. tauto.
Qed.

(** the vertices of [X] take the group name [k] and the tag [t], which name
    the same group among the others; nobody else moves *)
Lemma R_regroup g g' s v1 v2 a (X : nat -> bool) k t grp' fresh' :
  R g s -> s_present s v1 = true -> same_except_vertices g g' ->
  (forall w, prs g' w = prs g w) -> (forall w, dat g' w = dat g w) ->
  (forall w, edg g' w = if w =? v1 then spec_insert (edg g v1) a v2 else edg g w) ->
  (forall w, tag g' w = if X w then t else tag g w) ->
  (forall w, grp' w = if X w then Some k else s_grp s w) ->
  (forall w, X w = true -> s_present s w = true) ->
  2 <= t -> k < fresh' -> s_fresh s <= fresh' ->
  (forall w, s_present s w = true -> X w = false -> (s_grp s w = Some k <-> tag g w = t)) ->
  R g' (mkS (s_bound s) (s_present s) grp' (s_unread s)
            (fupd (s_edges s) v1 (spec_insert (s_edges s v1) a v2)) (s_data s) (s_alloc s) fresh').
Proof.
  intros HR P1 X0 P D E T Gr HX Ht Hk Hf Hc.
  apply (R_bind_frame g g' s v1 v2 a _ _ HR P1 X0); auto.
  - apply present_same_tag. intros w. rewrite T. destruct (X w) eqn:Xw; [|tauto].
    pose proof (present_tag g s w HR (HX w Xw)). lia.
  - intros w Hw. rewrite Gr, T. destruct (X w); [split; [discriminate|lia]|apply (r_ungr HR w Hw)].
  - intros w1 w2 H1 H2. rewrite !Gr, !T. destruct (X w1) eqn:X1, (X w2) eqn:X2; intros Hn.
    + tauto.
    + split; intros K; symmetry; apply (Hc w2 H2 X2); symmetry; exact K.
    + apply (Hc w1 H1 X1).
    + apply (r_grp HR); assumption.
  - intros w k' Hw. rewrite Gr. destruct (X w); [intros [= <-]; exact Hk|].
    intros K. apply (r_fresh HR w k' Hw) in K. lia.
Qed.

(** the ungrouped [x] joins the group of [y] *)
Lemma R_join n g g' s v1 v2 a x y k :
  Inv n g -> R g s -> s_present s v1 = true -> same_except_vertices g g' ->
  (forall w, prs g' w = prs g w) -> (forall w, dat g' w = dat g w) ->
  (forall w, edg g' w = if w =? v1 then spec_insert (edg g v1) a v2 else edg g w) ->
  (forall w, tag g' w = if w =? x then tag g y else tag g w) ->
  s_present s x = true -> s_present s y = true -> s_grp s y = Some k ->
  R g' (mkS (s_bound s) (s_present s) (fupd (s_grp s) x (Some k)) (s_unread s)
            (fupd (s_edges s) v1 (spec_insert (s_edges s v1) a v2)) (s_data s) (s_alloc s) (s_fresh s)).
Proof.
  intros HI HR P1 X0 P D E T Px Py Gy.
  assert (Gn : s_grp s y <> None) by congruence.
  apply (R_regroup g g' s v1 v2 a (fun w => w =? x) k (tag g y) _ _ HR P1 X0 P D E T).
  - intros w. unfold fupd. rewrite Nat.eqb_sym. reflexivity.
  - intros w Hw. apply Nat.eqb_eq in Hw. subst w. exact Px.
  - apply (grouped_tag n g s y k HI HR Py Gy).
  - apply (r_fresh HR y k Py Gy).
  - apply le_n.
  - intros w Hw _. rewrite <- Gy.
    split; intros K; symmetry; apply (r_grp HR y w Py Hw Gn); symmetry; exact K.
Qed.

Lemma sim_bind n g s v1 v2 a :
  Inv n g -> R g s -> pre n (cap_of g) s (OBind v1 v2 a) -> sim_goal n g s (OBind v1 v2 a).
Proof.
  intros HI HR Hpre. pose proof (pre_cpre n g s _ HI HR Hpre) as Hc.
  destruct Hpre as (P1 & P2 & Hne & _ & _).
  pose proof Hc as (T1 & T2 & _ & Hr & Huu & Hug & Hgu).
  pose proof (tag_nonzero_lt g v1 T1) as L1. pose proof (tag_nonzero_lt g v2 T2) as L2.
  cut (exists g', op_bind n g v1 v2 a = Ok g' /\ R g' (fst (sstep s (OBind v1 v2 a)))).
  { intros (g' & A & HR'). apply (sim_goal_intro n g s _ g' HI Hc); [|exact HR'].
    cbn [step sstep]. rewrite A. destruct (s_grp s v1), (s_grp s v2); reflexivity. }
  cbn [sstep].
  destruct (s_grp s v1) as [k1|] eqn:G1; destruct (s_grp s v2) as [k2|] eqn:G2; cbn [fst].
  - (* both grouped: no group changes *)
    destruct (grouped_tag n g s v1 k1 HI HR P1 G1) as [N1 _].
    destruct (grouped_tag n g s v2 k2 HI HR P2 G2) as [N2 _].
    destruct (bind_gg n g v1 v2 a L1 L2) as (g' & A & T & P & D & E & _ & _ & X); [lia|lia|exact Hr|].
    exists g'. split; [exact A|].
    apply (R_bind_frame g g' s v1 v2 a _ _ HR P1 X); auto.
    + apply present_same_tag. intros w. rewrite T. tauto.
    + intros w Hw. rewrite T. apply (r_ungr HR w Hw).
    + intros w1 w2 Hw1 Hw2. rewrite !T. apply (r_grp HR); assumption.
    + apply (r_fresh HR).
  - (* v2 ungrouped joins the group of v1 *)
    destruct (grouped_tag n g s v1 k1 HI HR P1 G1) as [N1 Lt].
    assert (E2 : tag g v2 = 1) by (apply (r_ungr HR v2 P2); exact G2).
    destruct (bind_gu n g v1 v2 a L1 L2) as (g' & A & T & P & D & E & _ & _ & X);
      eauto using inv_tag_nb, inv_tag_ns; [lia|apply Hgu; lia|].
    exists g'. split; [exact A|].
    apply (R_join n g g' s v1 v2 a v2 v1 k1); assumption.
  - (* v1 ungrouped joins the group of v2 *)
    destruct (grouped_tag n g s v2 k2 HI HR P2 G2) as [N2 Lt].
    assert (E1 : tag g v1 = 1) by (apply (r_ungr HR v1 P1); exact G1).
    destruct (bind_ug n g v1 v2 a L1 L2) as (g' & A & T & P & D & E & _ & _ & X);
      eauto using inv_tag_nb, inv_tag_ns; [lia|apply Hug; lia|].
    exists g'. split; [exact A|].
    apply (R_join n g g' s v1 v2 a v1 v2 k2); assumption.
  - (* both ungrouped: a new group in the first empty slot, under the next name *)
    assert (E1 : tag g v1 = 1) by (apply (r_ungr HR v1 P1); exact G1).
    assert (E2 : tag g v2 = 1) by (apply (r_ungr HR v2 P2); exact G2).
    destruct (Huu E1 E2) as (b & Hf).
    destruct (first_empty_group n g b HI Hf) as (Hb1 & Hb2 & Hmb).
    destruct (bind_uu n g v1 v2 a b L1 L2 (i_nb HI) (i_ns HI) E1 E2 Hr Hf) as (g' & A & T & P & D & E & _ & _ & X).
    exists g'. split; [exact A|].
    apply (R_regroup g g' s v1 v2 a (fun w => (w =? v1) || (w =? v2)) (s_fresh s) b _ _ HR P1 X P D E T);
      try lia.
    + intros w. unfold fupd. rewrite (Nat.eqb_sym v1), (Nat.eqb_sym v2).
      destruct (w =? v2), (w =? v1); reflexivity.
    + intros w Hw. apply orb_true_iff in Hw as [Hw|Hw]; apply Nat.eqb_eq in Hw; subst w; assumption.
    + intros w Hw _. split; intros K; exfalso.
      * apply (r_fresh HR w _ Hw) in K. lia.
      * apply (i_mem HI b w Hb1 Hb2) in K. rewrite Hmb in K. exact K.
Qed.

Lemma sim_put n g s v d :
  Inv n g -> R g s -> s_present s v = true -> sim_goal n g s (OPut v d).
Proof.
  intros HI HR Pv. pose proof (present_tag g s v HR Pv) as Tv.
  destruct (put_sum n g v d HI Tv) as (g' & A & _ & T & P & D & E & _ & _ & X).
  pose proof (se_cap _ _ X) as X1. pose proof (se_next _ _ X) as X4.
  apply (sim_goal_intro n g s (OPut v d) g' HI Tv); cbn [step sstep fst snd]; [rewrite A; reflexivity|].
  apply (R_same_tags g g' s _ _ _ _ HR X1 T).
  - intros w Hw. unfold fupd, is_stored. rewrite P. split_eq w v; [reflexivity|apply (r_unread HR w Hw)].
  - intros w Hw. rewrite E. apply (r_edges HR w Hw).
  - intros w Hw. unfold fupd, has_data. rewrite P, D. split_eq w v; [reflexivity|apply (r_data HR w Hw)].
  - rewrite X4. apply (r_alloc HR).
Qed.

(** [op_data] collects the group of [v] when it finds the counter at 1: that
    is when no other member holds unread data *)
Lemma dies_iff n g s v k :
  Inv n g -> R g s -> s_present s v = true -> s_grp s v = Some k -> prs g v = PStored ->
  (store g (tag g v) = 1 <-> existsb (fupd (s_unread s) v false) (group_members s k) = false).
Proof.
  intros HI HR Pv Gv Sv. destruct (grouped_tag n g s v k HI HR Pv Gv) as [T1 T2].
  assert (Hin : In v (members g (tag g v))) by (apply (i_mem HI); auto).
  assert (Lv : v < cap_of g) by (apply tag_nonzero_lt; lia).
  set (g1 := set_prs g v PTaken).
  assert (Q : forall w, w <> v -> is_stored g1 w = is_stored g w).
  { intros w Hw. apply is_stored_prs. unfold g1. rewrite (prs_set_prs_in g v _ w Lv).
    apply Nat.eqb_neq in Hw. rewrite Hw. reflexivity. }
  assert (Qv : is_stored g1 v = false).
  { unfold is_stored, g1. rewrite (prs_set_prs_in g v _ v Lv), Nat.eqb_refl. reflexivity. }
  assert (Sv' : is_stored g v = true) by (unfold is_stored; rewrite Sv; reflexivity).
  pose proof (nstored_flip_off g g1 (members g (tag g v)) v (i_nodup HI _ T1 T2) Hin Sv' Qv Q) as C.
  rewrite (i_cnt HI _ T1 T2), C, last_unread_spec.
  assert (Z : nstored g1 (members g (tag g v)) + 1 = 1 <-> nstored g1 (members g (tag g v)) = 0) by lia.
  rewrite Z, nstored_zero. clear Z C.
  split.
  - intros H m Hm Hne. pose proof (proj1 (group_members_spec s k m) Hm) as (_ & Pm & _).
    rewrite (r_unread HR m Pm), <- (Q m Hne). apply H. apply (group_elems n g s v k HI HR Pv Gv). exact Hm.
  - intros H w Hw. destruct (Nat.eq_dec w v) as [->|Hne]; [exact Qv|]. rewrite (Q w Hne).
    apply (group_elems n g s v k HI HR Pv Gv) in Hw.
    pose proof (proj1 (group_members_spec s k w) Hw) as (_ & Pw & _).
    rewrite <- (r_unread HR w Pw). apply H; assumption.
Qed.

Lemma data_result g s v :
  R g s -> s_present s v = true ->
  s_data s v = match prs g v with PEmpty => None | _ => Some (dat g v) end.
Proof.
  intros HR Pv. rewrite (r_data HR v Pv). unfold has_data. destruct (prs g v); reflexivity.
Qed.

Lemma prs_result g s v :
  R g s -> s_present s v = true ->
  prs g v = if s_unread s v then PStored
            else match s_data s v with Some _ => PTaken | None => PEmpty end.
Proof.
  intros HR Pv. rewrite (r_unread HR v Pv), (data_result g s v HR Pv). unfold is_stored.
  destruct (prs g v); reflexivity.
Qed.

Lemma R_mark_read g s v :
  R g s -> v < cap_of g -> prs g v = PStored -> R (set_prs g v PTaken) (mark_read s v).
Proof.
  intros HR Lv Sv. pose proof (fun w => prs_set_prs_in g v PTaken w Lv) as P.
  apply (R_same_tags g _ s _ _ _ _ HR).
  - apply cap_set_prs.
  - intros w. apply tag_set_prs.
  - intros w Hw. unfold fupd, is_stored. rewrite P. split_eq w v; [reflexivity|apply (r_unread HR w Hw)].
  - intros w Hw. rewrite edg_set_prs. apply (r_edges HR w Hw).
  - intros w Hw. rewrite (r_data HR w Hw). unfold has_data. rewrite P, dat_set_prs.
    split_eq w v; [rewrite Sv; reflexivity|reflexivity].
  - apply (r_alloc HR).
Qed.

Lemma R_without g g' s k :
  R g s -> cap_of g' = cap_of g -> g_next g' = g_next g ->
  (forall w, tag g' w = if in_group s k w then 0 else tag g w) ->
  (forall w, prs g' w = prs g w) -> (forall w, dat g' w = dat g w) -> (forall w, edg g' w = edg g w) ->
  R g' (without s k).
Proof.
  intros [B Pr Ib U G F Un Ed Da Al] C X T P D E.
  split; cbn [without s_bound s_present s_grp s_unread s_edges s_data s_alloc s_fresh]; try congruence.
  - intros w. unfold present. rewrite T. destruct (in_group s k w); [reflexivity|apply Pr].
  - intros w. destruct (in_group s k w); [discriminate|apply Ib].
  - intros w. rewrite T. destruct (in_group s k w); [discriminate|apply U].
  - intros w1 w2. rewrite !T. destruct (in_group s k w1); [discriminate|].
    destruct (in_group s k w2); [discriminate|]. apply G.
  - intros w k'. destruct (in_group s k w); [discriminate|apply F].
  - intros w. destruct (in_group s k w); [discriminate|]. intros Hw.
    rewrite (Un w Hw). symmetry. apply is_stored_prs. apply P.
  - intros w. destruct (in_group s k w); [discriminate|]. intros Hw. rewrite E. apply Ed; exact Hw.
  - intros w. destruct (in_group s k w); [discriminate|]. intros Hw.
    rewrite (Da w Hw). unfold has_data. rewrite P, D. reflexivity.
Qed.

Lemma sim_data n g s v :
  Inv n g -> R g s -> s_present s v = true -> sim_goal n g s (OData v).
Proof.
  intros HI HR Pv. pose proof (present_tag g s v HR Pv) as Tv.
  pose proof (tag_nonzero_lt g v Tv) as Lv. pose proof (i_tag HI v) as Lt.
  cut (exists g', op_data g v = Ok (g', s_data s v) /\ R g' (fst (sstep s (OData v)))).
  { intros (g' & A & HR'). apply (sim_goal_intro n g s (OData v) g' HI Tv); [|exact HR'].
    cbn [step]. rewrite A, sstep_data. reflexivity. }
  pose proof (r_unread HR v Pv) as Uv. unfold is_stored in Uv.
  rewrite (data_result g s v HR Pv), sstep_data. unfold collects. rewrite Uv. cbn [fst].
  destruct (prs g v) eqn:Sv; cbn [pers_eqb].
  - (* no datum *)
    exists g. split; [apply op_data_empty; assumption|exact HR].
  - (* first read *)
    pose proof (R_mark_read g s v HR Lv Sv) as R1.
    destruct (s_grp s v) as [k|] eqn:Gv.
    + destruct (grouped_tag n g s v k HI HR Pv Gv) as [T1 T2].
      assert (N1 : tag g v <> 1) by lia.
      pose proof (inv_tag_nb n g v HI) as Hnb. pose proof (inv_tag_ns n g v HI) as Hns.
      pose proof (store_pos n g v HI T1 Sv) as Hs.
      pose proof (dies_iff n g s v k HI HR Pv Gv Sv) as Hd.
      destruct (existsb (fupd (s_unread s) v false) (group_members s k)) eqn:Ex.
      * (* the group lives on *)
        assert (S2 : store g (tag g v) <> 1) by (intros Q; apply Hd in Q; discriminate).
        eexists. split; [apply op_data_stored_keep; auto; lia|].
        apply (R_ext _ _ _ R1 (cap_set_store _ _ _)); reflexivity.
      * (* the group dies *)
        assert (S1 : store g (tag g v) = 1) by (apply Hd; reflexivity).
        destruct (op_data_stored_last g v Lv Sv N1 Hnb Hns S1) as (g' & A & T & P & D & E & _ & _ & X).
        { intros m Hm. apply (i_mem HI) in Hm; auto. apply tag_nonzero_lt. lia. }
        exists g'. split; [exact A|].
        (* marking [v] read and dropping group [k] commute, by computation *)
        apply (R_without _ g' _ k R1); [rewrite cap_set_prs; exact (se_cap _ _ X)|exact (se_next _ _ X)|..]; intros w.
        -- rewrite tag_set_prs, T, <- (in_group_mem n g s v k HI HR Pv Gv w). reflexivity.
        -- rewrite P. symmetry. apply prs_set_prs_in. exact Lv.
        -- rewrite dat_set_prs. apply D.
        -- rewrite edg_set_prs. apply E.
    + (* ungrouped: never collected *)
      assert (E1 : tag g v = 1) by (apply (r_ungr HR v Pv); exact Gv).
      eexists. split; [apply op_data_stored_static; assumption|exact R1].
  - (* repeated read *)
    exists g. split; [apply op_data_taken; assumption|exact HR].
Qed.

Lemma sim_next n g s :
  Inv n g -> R g s -> pre n (cap_of g) s ONext -> sim_goal n g s ONext.
Proof.
  intros HI HR Hpre. pose proof (pre_cpre n g s _ HI HR Hpre) as Hc.
  destruct (next_id_effect g Hc) as (id & A & H1 & H2 & H3 & H4).
  destruct (spec_next_fresh n (cap_of g) s (r_inb HR) Hpre) as (id' & E & A1 & _ & A3 & A4).
  rewrite (r_alloc HR) in A1, A4.
  (* both models hand out the least absent id from the allocator position on *)
  assert (id' = id).
  { destruct (Nat.lt_trichotomy id' id) as [L|[L|L]]; [exfalso|exact L|exfalso].
    - apply (H4 id' A1 L). exact (absent_tag g s id' HR A3).
    - apply (present_tag g s id HR (A4 id H1 L)). exact H3. }
  subst id'.
  apply (sim_goal_intro n g s ONext (set_next g (S id)) HI Hc); rewrite E; cbn [step fst snd];
    [rewrite A; reflexivity|].
  destruct HR as [B Pr Ib U G F Un Ed Da Al].
  split; cbn [s_bound s_present s_grp s_unread s_edges s_data s_alloc s_fresh]; auto.
Qed.

Lemma keys_agree g s : R g s -> s_keys s = op_keys g.
Proof.
  intros HR. unfold s_keys, op_keys, ids, iota.
  rewrite (filter_seq_cut (fun v => negb (tag g v =? 0)) (s_bound s) (cap_of g) (r_bound HR)).
  - apply filter_ext. intros w. apply (r_pres HR).
  - intros w Hw. change (present g w = false). rewrite <- (r_pres HR).
    destruct (s_present s w) eqn:Q; [|reflexivity]. apply (r_inb HR) in Q. lia.
Qed.

Lemma sim_kid n g s v a :
  Inv n g -> R g s -> s_present s v = true -> sim_goal n g s (OKid v a).
Proof.
  intros HI HR Pv. pose proof (present_tag g s v HR Pv) as Tv.
  unfold sim_goal. cbn [step sstep fst snd]. rewrite op_kid_present by exact Tv. cbn [obind].
  exists g. rewrite (r_edges HR v Pv). auto.
Qed.

Lemma sim_kids n g s v :
  Inv n g -> R g s -> s_present s v = true -> sim_goal n g s (OKids v).
Proof.
  intros HI HR Pv. pose proof (present_tag g s v HR Pv) as Tv.
  unfold sim_goal. cbn [step sstep fst snd]. rewrite op_kids_present by exact Tv. cbn [obind].
  exists g. rewrite (r_edges HR v Pv). auto.
Qed.

Lemma sim_keys n g s : Inv n g -> R g s -> sim_goal n g s OKeys.
Proof.
  intros HI HR. unfold sim_goal. cbn [step sstep fst snd].
  exists g. rewrite (keys_agree g s HR). auto.
Qed.

Theorem sim_step n g s o :
  Inv n g -> R g s -> pre n (cap_of g) s o ->
  exists g', step n g o = Ok (g', snd (sstep s o)) /\ Inv n g' /\ R g' (fst (sstep s o)).
Proof.
  intros HI HR Hpre. destruct o as [v|v1 v2 a|v d|v| |v a|v|].
  - apply sim_add; assumption.
  - apply sim_bind; assumption.
  - apply sim_put; assumption.
  - apply sim_data; assumption.
  - apply sim_next; assumption.
  - apply sim_kid; assumption.
  - apply sim_kids; assumption.
  - apply sim_keys; assumption.
Qed.

