(** * XJoinFacts: the extension of XJoin.v is conservative.

    On a state without holes every x-operation is the plain operation [op_*];
    for merge, whenever [op_merge] gives an answer (anything but [Unmodelled],
    i.e. no [join] was needed), the extension gives the same answer and
    creates no hole ([x_merge_sim]).  Every x-operation preserves
    [xwf]: every hole is below the capacity and its slot is blank, hence never
    among the keys.  What holds of [x_merge] on arbitrary operands (joins,
    holes) is in XMergeFacts.v. *)

From Sodg Require Export XJoin MergeFacts.
From Sodg Require Import PrintFacts.

(** ** operations whose extension reduces definitionally *)

Lemma x_empty_nohole cap : x_empty cap = mkX (op_empty cap) [].
Proof. reflexivity. Qed.

Lemma x_add_nohole g v : x_add (mkX g []) v = xlift [] (op_add g v).
Proof. reflexivity. Qed.

Lemma x_bind_nohole n g v1 v2 a : x_bind n (mkX g []) v1 v2 a = xlift [] (op_bind n g v1 v2 a).
Proof. reflexivity. Qed.

Lemma x_put_nohole g v d : x_put (mkX g []) v d = xlift [] (op_put g v d).
Proof. reflexivity. Qed.

Lemma x_kids_nohole g v : x_kids (mkX g []) v = op_kids g v.
Proof. reflexivity. Qed.

Lemma x_kid_nohole g v a : x_kid (mkX g []) v a = op_kid g v a.
Proof. reflexivity. Qed.

Lemma x_keys_nohole g : x_keys (mkX g []) = op_keys g.
Proof. reflexivity. Qed.

Lemma x_len_nohole g : x_len (mkX g []) = op_len g.
Proof. reflexivity. Qed.

Lemma x_next_id_nohole g : x_next_id (mkX g []) = xlift2 [] (op_next_id g).
Proof. reflexivity. Qed.

Lemma x_clone_nohole g : x_clone (mkX g []) = mkX (op_clone g) [].
Proof. reflexivity. Qed.

Lemma x_debug_nohole g : x_debug (mkX g []) = op_debug g.
Proof. reflexivity. Qed.

Lemma x_to_xml_nohole g : x_to_xml (mkX g []) = op_to_xml g.
Proof. reflexivity. Qed.

Lemma x_to_dot_nohole g : x_to_dot (mkX g []) = op_to_dot g.
Proof. reflexivity. Qed.

(** with holes too: [keys] never looks at the hole list *)
Lemma x_keys_any x : x_keys x = op_keys (xg x).
Proof. reflexivity. Qed.

(** ** operations with a loop of their own: without holes it is the loop of
    the plain operation *)

Lemma xa_kill_nil g ms : xa_kill [] g ms = kill g ms.
Proof.
  revert g; induction ms as [|m t IH]; intros g; cbn [xa_kill kill]; [reflexivity|].
  cbn [chk_h mem existsb obind]. apply obind_ext. intros _. apply IH.
Qed.

Lemma xa_data_nil g v : xa_data [] g v = op_data g v.
Proof.
  unfold xa_data, op_data. cbn [chk_h mem existsb obind]. apply obind_ext. intros _.
  destruct (v_pers (vtx g v)); [reflexivity| |reflexivity]. cbv zeta.
  destruct (_ =? BRANCH_STATIC); [reflexivity|]. apply obind_ext. intros _.
  destruct (_ =? 0); [reflexivity|]. destruct (_ =? 0); [|reflexivity].
  rewrite xa_kill_nil. reflexivity.
Qed.

Lemma x_data_nohole g v : x_data (mkX g []) v = xlift2 [] (op_data g v).
Proof. unfold x_data. cbn [xg xh]. rewrite xa_data_nil. reflexivity. Qed.

Lemma xa_scan_batch_nil p g before done todo :
  xa_scan_batch [] p g before done todo = scan_batch p g before done todo.
Proof.
  revert done todo; induction before as [|v rest IH]; intros done todo;
    cbn [xa_scan_batch scan_batch]; [reflexivity|].
  cbn [chk_h mem existsb obind]. apply obind_ext. intros _.
  destruct (scan_edges p v (edg g v) (if mem v done then done else v :: done) todo) as [d2 t2].
  apply IH.
Qed.

Lemma xa_closure_nil fuel order p g done todo :
  xa_closure [] fuel order p g done todo = closure fuel order p g done todo.
Proof.
  revert done todo; induction fuel as [|f IH]; intros done todo; cbn [xa_closure closure]; [reflexivity|].
  destruct todo as [|t0 tr]; [reflexivity|].
  rewrite xa_scan_batch_nil. apply obind_ext. intros r. apply IH.
Qed.

Lemma xa_slice_some_nil n order g v p : xa_slice_some [] n order g v p = op_slice_some n order g v p.
Proof. unfold xa_slice_some, op_slice_some. rewrite xa_closure_nil. reflexivity. Qed.

Lemma x_slice_some_nohole n order g v p :
  x_slice_some n order (mkX g []) v p = xlift [] (op_slice_some n order g v p).
Proof. unfold x_slice_some. cbn [xg xh]. rewrite xa_slice_some_nil. reflexivity. Qed.

Lemma x_slice_nohole n order g v : x_slice n order (mkX g []) v = xlift [] (op_slice n order g v).
Proof. apply x_slice_some_nohole. Qed.

(** the slice of a graph with holes never has holes itself *)
Lemma x_slice_some_no_holes n order x v p x' : x_slice_some n order x v p = Ok x' -> xh x' = [].
Proof.
  unfold x_slice_some, xlift. destruct (xa_slice_some (xh x) n order (xg x) v p); cbn [obind]; try discriminate.
  intros H; injection H as <-. reflexivity.
Qed.

(** [v_print], [inspect]: [Some] is the [Ok] of the implementation *)

Lemma x_vprint_nohole g v : x_vprint (mkX g []) v = (t <- op_vprint g v ;; Ok (Some t)).
Proof.
  unfold x_vprint, xa_vprint, op_vprint, vprint_doc. cbn [xg xh mem existsb].
  destruct (chk_v g v); reflexivity.
Qed.

Lemma xa_inspect_v_nil fuel g : forall depth v seen,
  xa_inspect_v [] fuel g depth v seen = inspect_v fuel g depth v seen.
Proof.
  induction fuel as [|f IH]; intros depth v seen; [reflexivity|].
  (* both are the loop [igo] of PrintFacts.v, over recursive calls that agree *)
  change (xa_inspect_v [] (S f) g depth v seen)
    with (_ <- chk_v g v ;; igo (xa_inspect_v [] f g) depth v (sort_edges (edg g v)) (v :: seen) []).
  rewrite inspect_v_S. apply obind_ext. intros _.
  generalize (sort_edges (edg g v)) (v :: seen) (@nil iline). intros es.
  induction es as [|[lb to] rest IHes]; intros sn acc; cbn [igo]; [reflexivity|].
  destruct (mem to sn); [apply IHes|]. rewrite IH. apply obind_ext. intros r. apply IHes.
Qed.

Lemma x_inspect_nohole g v : x_inspect (mkX g []) v = (t <- op_inspect g v ;; Ok (Some t)).
Proof.
  unfold x_inspect, xa_inspect, op_inspect, inspect_doc. cbn [xg xh mem existsb].
  rewrite xa_inspect_v_nil.
  destruct (chk_v g v) eqn:E; cbn [obind];
    [destruct (inspect_v (cap_of g + 1) g 0 v []); reflexivity|..];
    (* the boundary check fails: [inspect_v] starts with the same check *)
    rewrite Nat.add_1_r; cbn [inspect_v]; rewrite E; reflexivity.
Qed.

Lemma xa_enc_vertices_nil l : xa_enc_vertices [] l = enc_emap enc_vertex l.
Proof.
  unfold xa_enc_vertices, enc_emap. cbn [mem existsb negb].
  rewrite (filter_id (fun _ : nat * vertex => true)) by reflexivity.
  rewrite combine_length. unfold iota. rewrite seq_length, Nat.min_id. reflexivity.
Qed.

Lemma x_encode_nohole g : x_encode (mkX g []) = encode g.
Proof. unfold x_encode, xa_encode, encode. cbn [xg xh]. rewrite xa_enc_vertices_nil. reflexivity. Qed.

Lemma xa_deploy_cmds_nil n vs g cmds pos : xa_deploy_cmds [] n vs g cmds pos = deploy_cmds n vs g cmds pos.
Proof.
  revert vs g pos; induction cmds as [|c rest IH]; intros vs g pos; cbn [xa_deploy_cmds deploy_cmds]; [reflexivity|].
  change (xa_deploy_one [] n vs g c) with (deploy_one n vs g c).
  apply obind_ext. intros [[vs1 g1]|g']; [apply IH|reflexivity].
Qed.

Lemma x_deploy_nohole n g script : x_deploy n (mkX g []) script = xlift2 [] (op_deploy n g script).
Proof. unfold x_deploy, xa_deploy, op_deploy. cbn [xg xh]. rewrite xa_deploy_cmds_nil. reflexivity. Qed.

(** ** merge *)

(** [osim f o xo]: [xo] answers like [o], with the result mapped by [f],
    unless [o] is [Unmodelled] (then nothing is claimed) *)
Definition osim {A B} (f : A -> B) (o : outcome A) (xo : outcome B) : Prop :=
  match o with
  | Ok a => xo = Ok (f a)
  | Panic k => xo = Panic k
  | OutOfFuel => xo = OutOfFuel
  | Unmodelled => True
  end.

Lemma osim_bind {A B A' B'} (f : A -> B) (f' : A' -> B')
  (o : outcome A) (xo : outcome B) (k : A -> outcome A') (xk : B -> outcome B') :
  osim f o xo -> (forall a, osim f' (k a) (xk (f a))) -> osim f' (obind o k) (obind xo xk).
Proof.
  intros H Hk. destruct o as [a|pk| |]; cbn [osim obind] in *; [|subst xo; reflexivity..|exact I].
  subst xo. apply Hk.
Qed.

Lemma osim_eq {A} (o : outcome A) : osim (fun a => a) o o.
Proof. destruct o; cbn [osim]; auto. Qed.

(** a plain state, alone or with a second result, as a hole-free extended state *)
Definition hfree (s : sodg) : xs := mkX s [].
Definition hfree2 {T} (st : sodg * T) : xs * T := (mkX (fst st) [], snd st).

Lemma osim_xlift (o : outcome sodg) : osim hfree o (xlift [] o).
Proof. destruct o; cbn [osim]; auto. Qed.

Lemma osim_xlift2 {T} (o : outcome (sodg * T)) : osim hfree2 o (xlift2 [] o).
Proof. destruct o; cbn [osim]; auto. Qed.

Lemma x_attach_nohole n s left a k mt :
  x_attach n (mkX s []) left a k mt = xlift2 [] (attach n s left a k mt).
Proof.
  unfold x_attach, attach. destruct k as [t|]; [reflexivity|]. destruct mt as [t|].
  - rewrite x_bind_nohole. destruct (op_bind n s left t a); reflexivity.
  - rewrite x_next_id_nohole. destruct (op_next_id s) as [[s1 id]| | |]; try reflexivity.
    cbn [xlift2 obind fst snd]. rewrite x_add_nohole. destruct (op_add s1 id) as [s2| | |]; try reflexivity.
    cbn [xlift obind]. rewrite x_bind_nohole. destruct (op_bind n s2 left id a); reflexivity.
Qed.

Lemma mgo_sim (rec : sodg -> nat -> nat -> mapping -> outcome (sodg * mapping))
  (xrec : xs -> nat -> nat -> mapping -> outcome (xs * mapping)) n left :
  (forall s l r m, osim hfree2 (rec s l r m) (xrec (mkX s []) l r m)) ->
  forall es s m, osim hfree2 (mgo rec n left es s m) (x_mgo xrec n left es (mkX s []) m).
Proof.
  intros Hrec. induction es as [|[a to] rest IH]; intros s m; cbn [mgo x_mgo]; [reflexivity|].
  rewrite x_kid_nohole. eapply osim_bind; [apply osim_eq|]. intros k.
  rewrite x_attach_nohole. eapply osim_bind; [apply osim_xlift2|]. intros [s1 t].
  eapply osim_bind; [apply Hrec|]. intros [s2 m2]. apply IH.
Qed.

(** the second loop: where [check_joins] says [Ok] no join is called *)
Lemma check_joins_sim n s left m es :
  osim (fun _ : unit => mkX s []) (check_joins s left m es) (x_check_joins n (mkX s []) left m es).
Proof.
  induction es as [|[a to] rest IH]; cbn [check_joins x_check_joins]; [reflexivity|].
  rewrite x_kid_nohole.
  destruct (op_kid s left a) as [[first|]| | |]; cbn [obind osim]; try reflexivity; try exact I.
  - destruct (map_get m to) as [second|]; [|exact IH].
    destruct (first =? second); [exact IH|exact I].
  - destruct (map_get m to); exact IH.
Qed.

Lemma x_merge_rec_S f n g x left right m :
  x_merge_rec (S f) n g x left right m =
  match map_get m right with
  | Some _ => Ok (x, m)
  | None =>
      _ <- chk_h (xh g) right ;;
      _ <- chk_v (xg g) right ;;
      x1 <- (if has_data (xg g) right then x_put x left (dat (xg g) right) else Ok x) ;;
      es <- x_kids g right ;;
      r <- x_mgo (x_merge_rec f n g) n left es x1 ((right, left) :: m) ;;
      x2 <- x_check_joins n (fst r) left (snd r) es ;;
      Ok (x2, snd r)
  end.
Proof. reflexivity. Qed.

Theorem x_merge_rec_sim f n g : forall s left right m,
  osim hfree2 (merge_rec f n g s left right m) (x_merge_rec f n (mkX g []) (mkX s []) left right m).
Proof.
  induction f as [|f IH]; intros s left right m; [reflexivity|].
  rewrite merge_rec_S, x_merge_rec_S.
  destruct (map_get m right) as [t|]; [reflexivity|].
  cbn [xg xh chk_h mem existsb obind].
  eapply osim_bind; [apply osim_eq|]. intros [].
  eapply (osim_bind hfree).
  { destruct (has_data g right); [apply osim_xlift|reflexivity]. }
  intros s1.
  (* [kids] of the right graph: the boundary check, then its edges *)
  rewrite x_kids_nohole. unfold op_kids. rewrite obind_assoc.
  eapply osim_bind; [apply osim_eq|]. intros []. cbn [obind].
  eapply osim_bind; [apply (mgo_sim _ _ n left IH)|]. intros [s2 m2].
  eapply osim_bind; [apply check_joins_sim|]. intros []. reflexivity.
Qed.

Theorem x_merge_sim n s h left right :
  osim hfree2 (op_merge n s h left right) (x_merge n (mkX s []) (mkX h []) left right).
Proof.
  unfold op_merge, x_merge. cbn [xg xh].
  eapply osim_bind; [apply x_merge_rec_sim|]. intros [s1 m1]. cbn [hfree2 fst snd].
  rewrite x_keys_nohole.
  destruct (length (dedup_keys m1) =? length (op_keys h)); reflexivity.
Qed.

(** every answer but [Unmodelled] in one statement *)
Theorem x_merge_nohole_total n s h left right :
  op_merge n s h left right <> Unmodelled ->
  x_merge n (mkX s []) (mkX h []) left right = xlift2 [] (op_merge n s h left right).
Proof.
  intros H. pose proof (x_merge_sim n s h left right) as S.
  destruct (op_merge n s h left right) as [[s' v]|k| |]; [exact S..|contradiction].
Qed.

(** whenever [op_merge] gives an answer, the extension gives the same answer
    and creates no hole *)
Theorem x_merge_nohole n s h left right s' v :
  op_merge n s h left right = Ok (s', v) ->
  x_merge n (mkX s []) (mkX h []) left right = Ok (mkX s' [], v).
Proof. intros H. rewrite x_merge_nohole_total, H by congruence. reflexivity. Qed.

Theorem x_merge_nohole_panic n s h left right k :
  op_merge n s h left right = Panic k ->
  x_merge n (mkX s []) (mkX h []) left right = Panic k.
Proof. intros H. rewrite x_merge_nohole_total, H by congruence. reflexivity. Qed.

Theorem x_merge_rec_nohole f n g s left right m s' m' :
  merge_rec f n g s left right m = Ok (s', m') ->
  x_merge_rec f n (mkX g []) (mkX s []) left right m = Ok (mkX s' [], m').
Proof. intros H. pose proof (x_merge_rec_sim f n g s left right m) as S. rewrite H in S. exact S. Qed.

(** the fuel, as far as it follows from [op_merge_fuel]: hole-free operands
    on which [op_merge] answers.  The full statement, for all operands and
    without hypothesis, is XMergeFacts.x_merge_fuel. *)
Theorem x_merge_fuel_partial n s h left right :
  op_merge n s h left right <> Unmodelled ->
  x_merge n (mkX s []) (mkX h []) left right <> OutOfFuel.
Proof.
  intros H. rewrite (x_merge_nohole_total n s h left right H).
  pose proof (op_merge_fuel n s h left right) as F.
  destruct (op_merge n s h left right); [discriminate..|contradiction|contradiction].
Qed.

(** ** well-formedness of extended states

    The x-operations delegate [keys], [len], the exports and [Debug] to the
    plain functions on [xg]; that is sound because the slot of a hole is
    blank in [xg] ([xwf]).  Every primitive leaves the capacity and the slots
    of the holes alone ([vsame]); [x_join] adds exactly [right] to the holes,
    and blanks its slot. *)

(** frame: the slots of the holes [hs] and the capacity are untouched *)
Definition vsame (hs : list nat) (g g' : sodg) : Prop :=
  cap_of g' = cap_of g /\ forall w, mem w hs = true -> vtx g' w = vtx g w.

Lemma vsame_refl hs g : vsame hs g g.
Proof. split; auto. Qed.

(** What a call returns has been built by setters.  The lemmas carry a state
    [g0] along, so that they compose by [apply]; [vsame_vtx] covers [set_tag],
    [set_edges] and [set_prs], which unfold to [set_vtx]. *)
Lemma vsame_vtx hs g0 g v x : mem v hs = false -> vsame hs g0 g -> vsame hs g0 (set_vtx g v x).
Proof.
  intros Hv [C V]. split; [rewrite cap_set_vtx; exact C|].
  intros w Hw. rewrite vtx_set_vtx_neq; [exact (V w Hw)|]. intros ->. congruence.
Qed.

(** the group tables and the allocator position are not in the vertex store *)
Lemma vsame_members hs g0 g b m : vsame hs g0 g -> vsame hs g0 (set_members g b m).
Proof. exact (fun H => H). Qed.
Lemma vsame_store hs g0 g b k : vsame hs g0 g -> vsame hs g0 (set_store g b k).
Proof. exact (fun H => H). Qed.
Lemma vsame_next hs g0 g k : vsame hs g0 g -> vsame hs g0 (set_next g k).
Proof. exact (fun H => H). Qed.

Lemma join_group_vsame hs g0 g t x k g' :
  mem x hs = false -> vsame hs g0 g -> join_group g t x k = Ok g' -> vsame hs g0 g'.
Proof.
  intros Hx H0 H. apply obind_ok in H as (g1 & P & H).
  apply push_member_inv in P. apply add_store_inv in H. subst g' g1.
  apply vsame_store, vsame_members, vsame_vtx; assumption.
Qed.

Lemma op_add_vsame hs g0 g v g' :
  mem v hs = false -> vsame hs g0 g -> op_add g v = Ok g' -> vsame hs g0 g'.
Proof.
  intros Hv H0. unfold op_add. destruct (chk_v g v); cbn [obind]; try discriminate.
  destruct (_ =? _); intros [= <-]; [apply vsame_vtx|]; assumption.
Qed.

Lemma op_put_vsame hs g0 g v d g' :
  mem v hs = false -> vsame hs g0 g -> op_put g v d = Ok g' -> vsame hs g0 g'.
Proof.
  intros Hv H0. unfold op_put. destruct (chk_v g v); cbn [obind]; try discriminate.
  destruct (_ && _); [intros H; apply add_store_inv in H as ->; apply vsame_store|intros [= <-]];
    apply vsame_vtx; assumption.
Qed.

Lemma op_bind_vsame hs n g0 g v1 v2 a g' :
  mem v1 hs = false -> mem v2 hs = false -> vsame hs g0 g ->
  op_bind n g v1 v2 a = Ok g' -> vsame hs g0 g'.
Proof.
  intros H1 H2 H0. rewrite op_bind_nf.
  destruct (chk_v g v1), (chk_v g v2), (mm_insert n (edg g v1) a v2) as [e'| | |];
    cbn [obind]; try discriminate.
  assert (V1 : vsame hs g0 (set_edges g v1 e')) by (apply vsame_vtx; assumption).
  unfold bind_groups. destruct (_ =? 1), (_ =? 1); [destruct (first_empty g)|..].
  - apply join_group_vsame; [exact H2|]. apply vsame_vtx; [exact H1|]. apply vsame_members, V1.
  - apply join_group_vsame; assumption.
  - apply join_group_vsame; assumption.
  - apply join_group_vsame; assumption.
  - intros [= <-]. exact V1.
Qed.

(** a call guarded by [chk_h] that returns was not aimed at a hole *)
Lemma chk_h_then {A} hs v (o : outcome A) a :
  (_ <- chk_h hs v ;; o) = Ok a -> mem v hs = false /\ o = Ok a.
Proof. unfold chk_h. destruct (mem v hs); cbn [obind]; [discriminate|auto]. Qed.

Lemma xa_add_vsame hs g0 g v g' : vsame hs g0 g -> xa_add hs g v = Ok g' -> vsame hs g0 g'.
Proof. intros H0 H. apply chk_h_then in H as [Hv H]. exact (op_add_vsame _ _ _ _ _ Hv H0 H). Qed.

Lemma xa_put_vsame hs g0 g v d g' : vsame hs g0 g -> xa_put hs g v d = Ok g' -> vsame hs g0 g'.
Proof. intros H0 H. apply chk_h_then in H as [Hv H]. exact (op_put_vsame _ _ _ _ _ _ Hv H0 H). Qed.

Lemma xa_bind_vsame hs n g0 g v1 v2 a g' :
  vsame hs g0 g -> xa_bind hs n g v1 v2 a = Ok g' -> vsame hs g0 g'.
Proof.
  intros H0 H. apply chk_h_then in H as [H1 H]. apply chk_h_then in H as [H2 H].
  exact (op_bind_vsame _ _ _ _ _ _ _ _ H1 H2 H0 H).
Qed.

Lemma xa_kill_vsame hs ms : forall g0 g g',
  vsame hs g0 g -> xa_kill hs g ms = Ok g' -> vsame hs g0 g'.
Proof.
  induction ms as [|m t IH]; intros g0 g g' H0 H; cbn [xa_kill] in H.
  - injection H as <-. exact H0.
  - apply chk_h_then in H as [Hm H]. apply obind_ok in H as (_ & _ & H).
    eapply IH; [|exact H]. apply vsame_vtx; assumption.
Qed.

Lemma xa_data_vsame hs g0 g v g' r :
  vsame hs g0 g -> xa_data hs g v = Ok (g', r) -> vsame hs g0 g'.
Proof.
  intros H0 H. apply chk_h_then in H as [Hv H]. revert H.
  destruct (chk_v g v); cbn [obind]; try discriminate.
  assert (V1 : vsame hs g0 (set_prs g v PTaken)) by (apply vsame_vtx; assumption).
  destruct (v_pers (vtx g v)); [intros [= <- _]; exact H0| |intros [= <- _]; exact H0].
  destruct (_ =? BRANCH_STATIC); [intros [= <- _]; exact V1|].
  destruct (chk_b _ _); cbn [obind]; try discriminate.
  destruct (_ =? 0); [discriminate|].
  destruct (_ =? 0); [|intros [= <- _]; apply vsame_store, V1].
  destruct (xa_kill _ _ _) as [g3| | |] eqn:K; cbn [obind]; try discriminate.
  intros [= <- _]. apply vsame_members. eapply xa_kill_vsame; [|exact K]. apply vsame_store, V1.
Qed.

Lemma xa_next_id_vsame hs g0 g g' id :
  vsame hs g0 g -> xa_next_id hs g = Ok (g', id) -> vsame hs g0 g'.
Proof.
  intros H0. unfold xa_next_id. destruct (find _ _); [|discriminate].
  intros [= <- _]. destruct (_ <? _); [apply vsame_next|]; exact H0.
Qed.

Definition sres_vsame (hs : list nat) (g0 : sodg) (r : sres (vars * sodg)) : Prop :=
  match r with SOk t => vsame hs g0 (snd t) | SErr g' => vsame hs g0 g' end.

(** an argument is parsed, then [K] goes on from the state it leaves: the
    shape of every use of [xa_parse_arg] in [xa_deploy_one] *)
Lemma xa_parse_arg_then hs vs g0 g s (K : vars * sodg * nat -> outcome (sres (vars * sodg))) r :
  vsame hs g0 g ->
  (forall vs1 g1 v, vsame hs g0 g1 -> K (vs1, g1, v) = Ok r -> sres_vsame hs g0 r) ->
  (r0 <- xa_parse_arg hs vs g s ;; match r0 with SOk t => K t | SErr g' => Ok (SErr g') end) = Ok r ->
  sres_vsame hs g0 r.
Proof.
  intros H0 HK. unfold xa_parse_arg. destruct s as [|head tail]; [intros [= <-]; exact H0|].
  destruct (head =? ch_dollar)%N.
  - destruct (var_get vs tail); [apply HK, H0|].
    rewrite obind_assoc. intros H. apply obind_ok in H as ([g1 id] & E & H).
    exact (HK _ _ _ (xa_next_id_vsame _ _ _ _ _ H0 E) H).
  - destruct (head =? ch_nu)%N; [destruct (parse_usize tail)|destruct (parse_usize (head :: tail))];
      [apply HK, H0|intros [= <-]; exact H0|apply HK, H0|intros [= <-]; exact H0].
Qed.

Lemma xa_deploy_one_vsame hs n vs g0 g cmd r :
  vsame hs g0 g -> xa_deploy_one hs n vs g cmd = Ok r -> sres_vsame hs g0 r.
Proof.
  intros H0. unfold xa_deploy_one.
  destruct (parse_line cmd) as [[name raw]|]; [|intros [= <-]; exact H0]. cbv zeta.
  destruct (fields ch_comma raw) as [|a1 rest].
  { destruct (text_eqb name t_ADD), (text_eqb name t_BIND), (text_eqb name t_PUT);
      intros [= <-]; exact H0. }
  destruct (text_eqb name t_ADD);
    [|destruct (text_eqb name t_BIND); [|destruct (text_eqb name t_PUT); [|intros [= <-]; exact H0]]];
    (apply xa_parse_arg_then; [exact H0|]; intros vs1 g1 v1 V1).
  - destruct (xa_add hs g1 v1) as [g2| | |] eqn:E; cbn [obind]; try discriminate.
    intros [= <-]. exact (xa_add_vsame _ _ _ _ _ V1 E).
  - destruct rest as [|a2 rest2]; [intros [= <-]; exact V1|].
    apply xa_parse_arg_then; [exact V1|]. intros vs2 g2 v2 V2.
    destruct rest2 as [|a3 rest3]; [intros [= <-]; exact V2|].
    destruct (label_from_str a3) as [l|]; [|intros [= <-]; exact V2].
    destruct (xa_bind hs n g2 v1 v2 l) as [g3| | |] eqn:E; cbn [obind]; try discriminate.
    intros [= <-]. exact (xa_bind_vsame _ _ _ _ _ _ _ _ V2 E).
  - destruct rest as [|a2 rest2]; [intros [= <-]; exact V1|].
    destruct (parse_data a2) as [d|]; [|intros [= <-]; exact V1].
    destruct (xa_put hs g1 v1 d) as [g2| | |] eqn:E; cbn [obind]; try discriminate.
    intros [= <-]. exact (xa_put_vsame _ _ _ _ _ _ V1 E).
Qed.

Lemma xa_deploy_cmds_vsame hs n cmds : forall vs g0 g pos g' r,
  vsame hs g0 g -> xa_deploy_cmds hs n vs g cmds pos = Ok (g', r) -> vsame hs g0 g'.
Proof.
  induction cmds as [|c rest IH]; intros vs g0 g pos g' r H0 H; cbn [xa_deploy_cmds] in H.
  - injection H as <- _. exact H0.
  - apply obind_ok in H as (r1 & E & H). apply (xa_deploy_one_vsame _ _ _ _ _ _ _ H0) in E.
    destruct r1 as [[vs1 g1]|g1]; [exact (IH _ _ _ _ _ _ E H)|]. injection H as <- _. exact E.
Qed.

Definition xwf (x : xs) : Prop :=
  forall v, mem v (xh x) = true -> v < cap_of (xg x) /\ vtx (xg x) v = blank.

Lemma xwf_nohole g : xwf (mkX g []).
Proof. intros v H. discriminate. Qed.

Lemma xwf_vsame hs g g' : xwf (mkX g hs) -> vsame hs g g' -> xwf (mkX g' hs).
Proof.
  intros W [C V] v Hv. cbn [xg xh] in *. destruct (W v Hv) as [L B]. split; [rewrite C; exact L|].
  rewrite V; assumption.
Qed.

Lemma xwf_hole_not_key x v : xwf x -> mem v (xh x) = true -> ~ In v (x_keys x).
Proof.
  intros W Hv Hin. destruct (W v Hv) as [_ B]. unfold x_keys, op_keys in Hin.
  apply filter_In in Hin as [_ Ht]. unfold tag in Ht. rewrite B in Ht. discriminate.
Qed.

(** a slot that is blanked may be listed as a hole *)
Lemma xwf_dig g hs v : v < cap_of g -> xwf (mkX g hs) -> xwf (mkX (set_vtx g v blank) (v :: hs)).
Proof.
  intros Hv W w Hw. cbn [xg xh] in *. rewrite cap_set_vtx. rewrite mem_cons in Hw.
  destruct (Nat.eqb_spec w v) as [E|Hne].
  - subst w. split; [exact Hv|apply vtx_set_vtx_eq, Hv].
  - destruct (W w Hw) as [L B]. split; [exact L|]. rewrite vtx_set_vtx_neq; auto.
Qed.

Definition xpres (x x' : xs) : Prop := cap_of (xg x') = cap_of (xg x) /\ (xwf x -> xwf x').

Lemma xpres_refl x : xpres x x.
Proof. split; auto. Qed.

Lemma xpres_trans x1 x2 x3 : xpres x1 x2 -> xpres x2 x3 -> xpres x1 x3.
Proof. intros [C1 W1] [C2 W2]. split; [congruence|auto]. Qed.

Lemma xpres_vsame hs g g' : vsame hs g g' -> xpres (mkX g hs) (mkX g' hs).
Proof. intros V. split; [exact (proj1 V)|]. intros W. exact (xwf_vsame _ _ _ W V). Qed.

(** an operation that is a lifted [xa_] function keeps the hole list, and is
    as good as the frame property of that function *)
Lemma xlift_pres hs g o x' :
  (forall g', o = Ok g' -> vsame hs g g') ->
  xlift hs o = Ok x' -> xpres (mkX g hs) x' /\ xh x' = hs.
Proof.
  intros V. unfold xlift. destruct o as [g'| | |]; cbn [obind]; try discriminate.
  intros H; injection H as <-. split; [apply xpres_vsame, V|]; reflexivity.
Qed.

Lemma xlift2_pres {R} hs g (o : outcome (sodg * R)) x' r :
  (forall g', o = Ok (g', r) -> vsame hs g g') ->
  xlift2 hs o = Ok (x', r) -> xpres (mkX g hs) x' /\ xh x' = hs.
Proof.
  intros V. unfold xlift2. destruct o as [[g' r']| | |]; cbn [obind fst snd]; try discriminate.
  intros H; injection H as <- <-. split; [apply xpres_vsame, V|]; reflexivity.
Qed.

Lemma x_add_pres x v x' : x_add x v = Ok x' -> xpres x x' /\ xh x' = xh x.
Proof. destruct x as [g hs]. apply xlift_pres. intros g'. apply xa_add_vsame, vsame_refl. Qed.

Lemma x_put_pres x v d x' : x_put x v d = Ok x' -> xpres x x' /\ xh x' = xh x.
Proof. destruct x as [g hs]. apply xlift_pres. intros g'. apply xa_put_vsame, vsame_refl. Qed.

Lemma x_bind_pres n x v1 v2 a x' : x_bind n x v1 v2 a = Ok x' -> xpres x x' /\ xh x' = xh x.
Proof. destruct x as [g hs]. apply xlift_pres. intros g'. apply xa_bind_vsame, vsame_refl. Qed.

Lemma x_data_pres x v x' r : x_data x v = Ok (x', r) -> xpres x x' /\ xh x' = xh x.
Proof. destruct x as [g hs]. apply xlift2_pres. intros g'. apply xa_data_vsame, vsame_refl. Qed.

Lemma x_next_id_pres x x' id : x_next_id x = Ok (x', id) -> xpres x x' /\ xh x' = xh x.
Proof. destruct x as [g hs]. apply xlift2_pres. intros g'. apply xa_next_id_vsame, vsame_refl. Qed.

Lemma x_deploy_pres n x script x' r : x_deploy n x script = Ok (x', r) -> xpres x x' /\ xh x' = xh x.
Proof. destruct x as [g hs]. apply xlift2_pres. intros g'. apply xa_deploy_cmds_vsame, vsame_refl. Qed.

Lemma x_slice_some_wf n order x v p x' : x_slice_some n order x v p = Ok x' -> xwf x'.
Proof.
  intros H. apply x_slice_some_no_holes in H. destruct x' as [g' hs']. cbn [xh] in H.
  subst hs'. apply xwf_nohole.
Qed.

Lemma redirect_all_vsame hs n left right vs : forall g0 g g',
  (forall v, In v vs -> mem v hs = false) ->
  vsame hs g0 g -> redirect_all n g left right vs = Ok g' -> vsame hs g0 g'.
Proof.
  induction vs as [|v t IH]; intros g0 g g' Hvs H0 H; cbn [redirect_all] in H.
  - injection H as <-. exact H0.
  - apply obind_ok in H as (e' & _ & H). eapply IH; [|  |exact H].
    + intros w Hw. apply Hvs. right; exact Hw.
    + apply vsame_vtx; [|exact H0]. apply Hvs. left; reflexivity.
Qed.

Lemma join_kids_pres n left es : forall x x', join_kids n x left es = Ok x' -> xpres x x' /\ xh x' = xh x.
Proof.
  induction es as [|[a t] rest IH]; intros x x' H; cbn [join_kids] in H.
  - injection H as <-. split; [apply xpres_refl|reflexivity].
  - apply obind_ok in H as (k & _ & H). destruct k; [discriminate|].
    apply obind_ok in H as (x1 & E & H).
    apply x_bind_pres in E as [P1 H1]. apply IH in H as [P2 H2].
    split; [exact (xpres_trans _ _ _ P1 P2)|congruence].
Qed.

Lemma x_kids_ok g v es :
  x_kids g v = Ok es -> es = edg (xg g) v /\ v < cap_of (xg g) /\ mem v (xh g) = false.
Proof.
  intros H. apply chk_h_then in H as [Hh H].
  apply obind_ok in H as ([] & Hc & H). apply chk_v_inv in Hc. injection H as <-. auto.
Qed.

Lemma x_join_pres n x left right x' :
  x_join n x left right = Ok x' -> xpres x x' /\ xh x' = right :: xh x.
Proof.
  destruct x as [g hs]. unfold x_join. cbn [xg xh]. intros H.
  apply obind_ok in H as (g1 & E1 & H). apply obind_ok in H as (es & E2 & H).
  apply obind_ok in H as ([g2 hs2] & E3 & H). injection H as <-.
  apply x_kids_ok in E2 as (_ & Hr & _). apply join_kids_pres in E3 as [[C2 W2] E3].
  cbn [xg xh] in *. subst hs2.
  (* the capacity: [vsame] for no hole at all *)
  pose proof (proj1 (redirect_all_vsame [] _ _ _ _ _ _ _ (fun _ _ => eq_refl) (vsame_refl _ _) E1)) as C1.
  split; [|reflexivity]. split; cbn [xg]; [rewrite cap_set_vtx; congruence|].
  intros W. apply xwf_dig; [congruence|]. apply W2. apply (xwf_vsame _ _ _ W).
  (* the vertices rewritten are keys, and no hole is a key *)
  eapply redirect_all_vsame; [|apply vsame_refl|exact E1].
  intros v Hv. destruct (mem v hs) eqn:Em; [|reflexivity].
  destruct (xwf_hole_not_key (mkX g hs) v W Em Hv).
Qed.

Definition xgood (x x' : xs) : Prop :=
  xpres x x' /\ forall v, mem v (xh x) = true -> mem v (xh x') = true.

Lemma xgood_refl x : xgood x x.
Proof. split; [apply xpres_refl|auto]. Qed.

Lemma xgood_trans x1 x2 x3 : xgood x1 x2 -> xgood x2 x3 -> xgood x1 x3.
Proof. intros [P1 S1] [P2 S2]. split; [exact (xpres_trans _ _ _ P1 P2)|auto]. Qed.

Lemma xgood_of_pres x x' : xpres x x' /\ xh x' = xh x -> xgood x x'.
Proof. intros [P E]. split; [exact P|]. rewrite E. auto. Qed.

Lemma x_check_joins_good n left m es : forall x x', x_check_joins n x left m es = Ok x' -> xgood x x'.
Proof.
  induction es as [|[a to] rest IH]; intros x x' H; cbn [x_check_joins] in H.
  - injection H as <-. apply xgood_refl.
  - apply obind_ok in H as (r & _ & H).
    destruct r as [first|]; [|exact (IH _ _ H)].
    destruct (map_get m to) as [second|]; [|exact (IH _ _ H)].
    destruct (first =? second); [exact (IH _ _ H)|].
    apply obind_ok in H as (x1 & E & H). apply x_join_pres in E as [P E].
    eapply xgood_trans; [|exact (IH _ _ H)].
    split; [exact P|]. intros v Hv. rewrite E, mem_cons, Hv. apply orb_true_r.
Qed.

Lemma x_attach_good n x left a k mt x' t : x_attach n x left a k mt = Ok (x', t) -> xgood x x'.
Proof.
  unfold x_attach. destruct k as [t0|].
  - intros H; injection H as <- _. apply xgood_refl.
  - destruct mt as [t0|]; intros H.
    + apply obind_ok in H as (x1 & E & H). injection H as <- _.
      apply xgood_of_pres. exact (x_bind_pres _ _ _ _ _ _ E).
    + apply obind_ok in H as ([x1 id] & E1 & H). cbn [fst snd] in H.
      apply obind_ok in H as (x2 & E2 & H). apply obind_ok in H as (x3 & E3 & H). injection H as <- _.
      eapply xgood_trans; [apply xgood_of_pres; exact (x_next_id_pres _ _ _ E1)|].
      eapply xgood_trans; [apply xgood_of_pres; exact (x_add_pres _ _ _ E2)|].
      apply xgood_of_pres; exact (x_bind_pres _ _ _ _ _ _ E3).
Qed.

Lemma x_mgo_good (rec : xs -> nat -> nat -> mapping -> outcome (xs * mapping)) n left :
  (forall x l r m x' m', rec x l r m = Ok (x', m') -> xgood x x') ->
  forall es x m x' m', x_mgo rec n left es x m = Ok (x', m') -> xgood x x'.
Proof.
  intros Hrec. induction es as [|[a to] rest IH]; intros x m x' m' H; cbn [x_mgo] in H.
  - injection H as <- _. apply xgood_refl.
  - apply obind_ok in H as (k & _ & H).
    apply obind_ok in H as ([x1 t] & E1 & H). cbn [fst snd] in H.
    apply obind_ok in H as ([x2 m2] & E2 & H). cbn [fst snd] in H.
    eapply xgood_trans; [exact (x_attach_good _ _ _ _ _ _ _ _ E1)|].
    eapply xgood_trans; [exact (Hrec _ _ _ _ _ _ E2)|]. exact (IH _ _ _ _ H).
Qed.

Theorem x_merge_rec_good f n g : forall x left right m x' m',
  x_merge_rec f n g x left right m = Ok (x', m') -> xgood x x'.
Proof.
  induction f as [|f IH]; intros x left right m x' m' H; [discriminate|].
  rewrite x_merge_rec_S in H.
  destruct (map_get m right).
  - injection H as <- _. apply xgood_refl.
  - apply obind_ok in H as (u0 & _ & H).
    apply obind_ok in H as (u1 & _ & H).
    apply obind_ok in H as (x1 & E1 & H).
    apply obind_ok in H as (es & _ & H).
    apply obind_ok in H as ([x2 m2] & E2 & H). cbn [fst snd] in H.
    apply obind_ok in H as (x3 & E3 & H). injection H as <- _.
    eapply xgood_trans.
    { destruct (has_data (xg g) right).
      - apply xgood_of_pres. exact (x_put_pres _ _ _ _ E1).
      - injection E1 as <-. apply xgood_refl. }
    eapply xgood_trans; [exact (x_mgo_good _ n left IH _ _ _ _ _ E2)|].
    exact (x_check_joins_good _ _ _ _ _ _ E3).
Qed.

Theorem x_merge_good n s g left right s' r :
  x_merge n s g left right = Ok (s', r) -> xgood s s'.
Proof.
  unfold x_merge. intros H. apply obind_ok in H as ([x1 m1] & E & H). cbn [fst snd] in H.
  apply x_merge_rec_good in E.
  destruct (length (dedup_keys m1) =? length (x_keys g)); injection H as <- _; exact E.
Qed.

Corollary x_merge_wf n s g left right s' r :
  xwf s -> x_merge n s g left right = Ok (s', r) -> xwf s'.
Proof. intros W H. apply x_merge_good in H as [[_ P] _]. exact (P W). Qed.

(** ** non-vacuity *)

(** a right graph with one kid under two names, a left graph where the two
    names lead to two vertices: [op_merge] stops ... *)
Definition ex_left : sodg :=
  match (g <- op_add (op_empty 6) 0 ;; g <- op_add g 1 ;; g <- op_add g 2 ;;
         g <- op_bind 16 g 0 1 (Alpha 0) ;; g <- op_bind 16 g 0 2 (Alpha 1) ;;
         g <- op_add g 3 ;; g <- op_bind 16 g 1 3 (Alpha 2) ;; op_put g 1 (HVector [1; 2]%N)) with
  | Ok g => g
  | _ => op_empty 0
  end.

Definition ex_right : sodg :=
  match (g <- op_add (op_empty 6) 0 ;; g <- op_add g 5 ;;
         g <- op_bind 16 g 0 5 (Alpha 0) ;; op_bind 16 g 0 5 (Alpha 1)) with
  | Ok g => g
  | _ => op_empty 0
  end.

Example ex_old_unmodelled : op_merge 16 ex_left ex_right 0 0 = Unmodelled.
Proof. vm_compute. reflexivity. Qed.

(** ... and the extension performs the join: vertex 1 is merged into vertex
    2 (which inherits the kid under [Alpha 2]), slot 1 becomes a hole, its id
    stays in the member list of group 2 and the counter of unread data of
    that group still counts the datum that went away with the slot *)
Example ex_join :
  exists x, x_merge 16 (mkX ex_left []) (mkX ex_right []) 0 0 = Ok (x, None)
    /\ xh x = [1]
    /\ x_keys x = [0; 2; 3]
    /\ edg (xg x) 0 = [(Alpha 0, 2); (Alpha 1, 2)]
    /\ edg (xg x) 2 = [(Alpha 2, 3)]
    /\ members (xg x) 2 = [0; 1; 2; 3]
    /\ store (xg x) 2 = 1
    /\ vtx (xg x) 1 = blank
    /\ is_panic (x_add x 1) = true
    /\ x_vprint x 1 = Ok None
    /\ (exists x', x_next_id x = Ok (x', 4)).
Proof. vm_compute. eexists; repeat split; eexists; reflexivity. Qed.

(** hypotheses of [x_merge_nohole] are satisfiable: a tree merged into a tree *)
Definition ex_tree : sodg :=
  match (g <- op_add (op_empty 6) 0 ;; g <- op_add g 5 ;; op_bind 16 g 0 5 (Alpha 0)) with
  | Ok g => g
  | _ => op_empty 0
  end.

Example ex_nohole : exists s', op_merge 16 ex_left ex_tree 0 0 = Ok (s', None)
  /\ x_merge 16 (mkX ex_left []) (mkX ex_tree []) 0 0 = Ok (mkX s' [], None).
Proof.
  assert (E : exists s', op_merge 16 ex_left ex_tree 0 0 = Ok (s', None)) by (vm_compute; eexists; reflexivity).
  destruct E as (s' & E). exists s'. split; [exact E|exact (x_merge_nohole _ _ _ _ _ _ _ E)].
Qed.

(** a conflict in [join]: both copies have a kid under the same label *)
Definition ex_conflict : sodg :=
  match (g <- op_add ex_left 4 ;; op_bind 16 g 2 4 (Alpha 2)) with
  | Ok g => g
  | _ => op_empty 0
  end.

Example ex_join_conflict : x_merge 16 (mkX ex_conflict []) (mkX ex_right []) 0 0 = Panic PAssert.
Proof. vm_compute. reflexivity. Qed.

Print Assumptions x_data_nohole.
Print Assumptions x_slice_some_nohole.
Print Assumptions x_vprint_nohole.
Print Assumptions x_inspect_nohole.
Print Assumptions x_encode_nohole.
Print Assumptions x_deploy_nohole.
Print Assumptions x_merge_rec_sim.
Print Assumptions x_merge_sim.
Print Assumptions x_merge_nohole.
Print Assumptions x_merge_nohole_panic.
Print Assumptions x_merge_nohole_total.
Print Assumptions x_merge_rec_nohole.
Print Assumptions x_merge_fuel_partial.
Print Assumptions x_deploy_pres.
Print Assumptions x_data_pres.
Print Assumptions x_join_pres.
Print Assumptions x_merge_rec_good.
Print Assumptions x_merge_good.
Print Assumptions x_merge_wf.
