(** * SerialFacts: the decoder of [load()] (Serial.v) on the byte image of
    [save()].  For every state the Rust types and the crate's invariants allow
    ([wf_image_state]) it reads the image back (C08).  Every parser of
    Serial.v is stable under appending bytes unless it ran out of input, so
    every proper prefix of a complete image ends in [DEof] (C09); that the
    fuel of the repetition loops never decides is shown on the way. *)

From Sodg Require Import Serial Facts.
Require Import ZifyBool.

(** a number that the decoder turns into a [nat] has to be below its cut-off *)
Definition wf_num (lim : N) (x : nat) : Prop := (N.of_nat x < lim)%N.

Definition wf_hex_img (lim : N) (h : hex) : Prop :=
  wf_hex h = true /\
  match h with
  | HVector l => (N.of_nat (length l) < two64)%N
  | HBytes _ n => wf_num lim n
  end.

Definition wf_edge_img (lim : N) (e : label * nat) : Prop :=
  wf_label (fst e) = true /\ wf_num lim (snd e).

Definition wf_vertex_img (lim : N) (n_edges : nat) (x : vertex) : Prop :=
  wf_num lim (v_branch x) /\
  wf_hex_img lim (v_data x) /\
  NoDup (map fst (v_edges x)) /\
  length (v_edges x) <= n_edges /\
  Forall (wf_edge_img lim) (v_edges x).

Definition wf_stack_img (lim : N) (m : list nat) : Prop :=
  length m <= 16 /\ Forall (wf_num lim) m.

Definition wf_image_state (lim : N) (n_edges : nat) (g : sodg) : Prop :=
  (lim <= two64)%N /\
  (N.of_nat n_edges < two64)%N /\
  wf_num lim (length (g_stores g)) /\
  wf_num lim (length (g_branches g)) /\
  wf_num lim (length (g_vertices g)) /\
  Forall (wf_num lim) (g_stores g) /\
  Forall (wf_stack_img lim) (g_branches g) /\
  Forall (wf_vertex_img lim n_edges) (g_vertices g).

Definition wf_numb (lim : N) (x : nat) : bool := (N.of_nat x <? lim)%N.

Fixpoint nodup_labels (l : list label) : bool :=
  match l with
  | [] => true
  | a :: t => negb (existsb (label_eqb a) t) && nodup_labels t
  end.

Definition wf_hex_imgb (lim : N) (h : hex) : bool :=
  wf_hex h &&
  match h with
  | HVector l => (N.of_nat (length l) <? two64)%N
  | HBytes _ n => wf_numb lim n
  end.

Definition wf_edge_imgb (lim : N) (e : label * nat) : bool :=
  wf_label (fst e) && wf_numb lim (snd e).

Definition wf_vertex_imgb (lim : N) (n_edges : nat) (x : vertex) : bool :=
  wf_numb lim (v_branch x) && wf_hex_imgb lim (v_data x)
  && nodup_labels (map fst (v_edges x))
  && (length (v_edges x) <=? n_edges)
  && forallb (wf_edge_imgb lim) (v_edges x).

Definition wf_stack_imgb (lim : N) (m : list nat) : bool :=
  (length m <=? 16) && forallb (wf_numb lim) m.

Definition wf_image_stateb (lim : N) (n_edges : nat) (g : sodg) : bool :=
  (lim <=? two64)%N && (N.of_nat n_edges <? two64)%N
  && wf_numb lim (length (g_stores g))
  && wf_numb lim (length (g_branches g))
  && wf_numb lim (length (g_vertices g))
  && forallb (wf_numb lim) (g_stores g)
  && forallb (wf_stack_imgb lim) (g_branches g)
  && forallb (wf_vertex_imgb lim n_edges) (g_vertices g).

Lemma wf_numb_spec lim x : wf_numb lim x = true <-> wf_num lim x.
Proof. unfold wf_numb, wf_num. apply N.ltb_lt. Qed.

Lemma existsb_label_eqb a t : existsb (label_eqb a) t = true <-> In a t.
Proof.
  rewrite existsb_exists. split.
  - intros (y & Hy & E). apply label_eqb_spec in E. subst. exact Hy.
  - intros H. exists a. split; [exact H|apply label_eqb_refl].
Qed.

Lemma nodup_labels_spec l : nodup_labels l = true <-> NoDup l.
Proof.
  induction l as [|a t IH]; simpl.
  - split; auto using NoDup_nil.
  - rewrite andb_true_iff, negb_true_iff, IH, <- not_true_iff_false, existsb_label_eqb.
    split; [intros [H1 H2]; constructor; assumption|intros H; inversion H; auto].
Qed.

Lemma wf_hex_imgb_spec lim h : wf_hex_imgb lim h = true <-> wf_hex_img lim h.
Proof.
  unfold wf_hex_imgb, wf_hex_img. rewrite andb_true_iff.
  destruct h as [l|a n]; [rewrite N.ltb_lt | rewrite wf_numb_spec]; tauto.
Qed.

Lemma wf_edge_imgb_spec lim e : wf_edge_imgb lim e = true <-> wf_edge_img lim e.
Proof.
  unfold wf_edge_imgb, wf_edge_img. rewrite andb_true_iff, wf_numb_spec. tauto.
Qed.

Lemma wf_vertex_imgb_spec lim n x :
  wf_vertex_imgb lim n x = true <-> wf_vertex_img lim n x.
Proof.
  unfold wf_vertex_imgb, wf_vertex_img.
  rewrite !andb_true_iff, wf_numb_spec, wf_hex_imgb_spec, nodup_labels_spec,
    Nat.leb_le, (forallb_Forall_iff _ _ _ (wf_edge_imgb_spec lim)).
  tauto.
Qed.

Lemma wf_stack_imgb_spec lim m : wf_stack_imgb lim m = true <-> wf_stack_img lim m.
Proof.
  unfold wf_stack_imgb, wf_stack_img.
  rewrite andb_true_iff, Nat.leb_le, (forallb_Forall_iff _ _ _ (wf_numb_spec lim)).
  tauto.
Qed.

Lemma wf_image_stateb_spec lim n g :
  wf_image_stateb lim n g = true <-> wf_image_state lim n g.
Proof.
  unfold wf_image_stateb, wf_image_state.
  rewrite !andb_true_iff, N.leb_le, N.ltb_lt, !wf_numb_spec,
    (forallb_Forall_iff _ _ _ (wf_numb_spec lim)),
    (forallb_Forall_iff _ _ _ (wf_stack_imgb_spec lim)),
    (forallb_Forall_iff _ _ _ (wf_vertex_imgb_spec lim n)).
  tauto.
Qed.

Lemma wf_num_mono lim lim' x : (lim <= lim')%N -> wf_num lim x -> wf_num lim' x.
Proof. unfold wf_num; lia. Qed.

Lemma wf_image_state_mono lim lim' n g :
  (lim <= lim')%N -> (lim' <= two64)%N ->
  wf_image_state lim n g -> wf_image_state lim' n g.
Proof.
  intros Hl Hl' (H0 & Hn & H1 & H2 & H3 & H4 & H5 & H6).
  pose proof (fun x => wf_num_mono lim lim' x Hl) as M.
  repeat split; auto; eapply Forall_impl; try eassumption; cbv beta.
  - intros m [Ha Hb]. split; [exact Ha|]. eapply Forall_impl; eauto.
  - intros x (Ha & (Hb1 & Hb2) & Hc & Hd & He). repeat split; auto.
    + destruct (v_data x); auto.
    + eapply Forall_impl; [|exact He]. intros e [He1 He2]. split; auto.
Qed.

(** [p] reads the bytes [bs] as [a] and leaves what follows them *)
Definition reads {A} (p : parser A) (bs : list N) (a : A) : Prop :=
  forall r, p (bs ++ r) = DOk a r.

Lemma reads_ret {A} (a : A) : reads (pret a) [] a.
Proof. intros r. reflexivity. Qed.

Lemma reads_bind {A B} (p : parser A) (f : A -> parser B) b1 b2 a b :
  reads p b1 a -> reads (f a) b2 b -> reads (pbind p f) (b1 ++ b2) b.
Proof. intros H1 H2 r. rewrite <- app_assoc. unfold pbind. rewrite H1. apply H2. Qed.

Lemma reads_map {A B} (p : parser A) (f : A -> B) bs a :
  reads p bs a -> reads (x <~ p ;; pret (f x)) bs (f a).
Proof. intros H r. unfold pbind. rewrite H. reflexivity. Qed.

(** [pseq], [pedges], [pstack] take the fuel of their loop from the length
    of what is left to read *)
Lemma reads_fuel {A} (F : nat -> parser A) bs a :
  (forall f, length bs < f -> reads (F f) bs a) -> reads (fun l => F (S (length l)) l) bs a.
Proof. intros H r. apply H. rewrite app_length. lia. Qed.

Lemma prepeat_eq {A} f c (p : parser A) l :
  prepeat f c p l =
  (if (c =? 0)%N then pret []
   else match f with
        | O => pfail DEof
        | S f' => x <~ p ;; xs <~ prepeat f' (c - 1) p ;; pret (x :: xs)
        end) l.
Proof. destruct f; cbn [prepeat]; destruct (c =? 0)%N; reflexivity. Qed.

Lemma pedges_loop_eq f c lim n acc l :
  pedges_loop f c lim n acc l =
  (if (c =? 0)%N then pret acc
   else match f with
        | O => pfail DEof
        | S f' => e <~ pedge lim ;;
                  match mm_insert n acc (fst e) (snd e) with
                  | Ok acc' => pedges_loop f' (c - 1) lim n acc'
                  | _ => pfail DPanic
                  end
        end) l.
Proof. destruct f; cbn [pedges_loop]; destruct (c =? 0)%N; reflexivity. Qed.

Lemma count_succ k : (N.of_nat (S k) =? 0)%N = false /\ (N.of_nat (S k) - 1)%N = N.of_nat k.
Proof. split; lia. Qed.

Lemma le_bytes_S k x :
  le_bytes (S k) x = (x mod 256)%N :: le_bytes k (x / 256)%N.
Proof. reflexivity. Qed.

Lemma le_bytes_length k : forall x, length (le_bytes k x) = k.
Proof.
  induction k as [|k IH]; intros x; [reflexivity|].
  rewrite le_bytes_S. simpl. f_equal. apply IH.
Qed.

Lemma ple_le_bytes k : forall x,
  (x < 256 ^ N.of_nat k)%N -> reads (ple k) (le_bytes k x) x.
Proof.
  induction k as [|k IH]; intros x H r.
  - change (256 ^ N.of_nat 0)%N with 1%N in H.
    cbn [ple le_bytes app]. unfold pret. f_equal. lia.
  - rewrite le_bytes_S. cbn [ple app]. unfold pbind at 1. cbn [pbyte].
    unfold pbind. rewrite IH.
    + unfold pret. f_equal.
      pose proof (N.div_mod x 256). lia.
    + rewrite Nat2N.inj_succ, N.pow_succ_r' in H.
      apply N.div_lt_upper_bound; lia.
Qed.

Lemma pu64_rt x : (x < two64)%N -> reads pu64 (enc_u64 x) x.
Proof. exact (ple_le_bytes 8 x). Qed.

Lemma pu32_rt x : (x < 4294967296)%N -> reads pu32 (enc_u32 x) x.
Proof. exact (ple_le_bytes 4 x). Qed.

Lemma psmall_rt lim x :
  (lim <= two64)%N -> wf_num lim x -> reads (psmall lim) (enc_nat x) x.
Proof.
  unfold wf_num. intros Hl Hx r. unfold psmall, pbind, enc_nat.
  rewrite pu64_rt by lia.
  destruct (N.ltb_spec (N.of_nat x) lim) as [_|Hge]; [|lia].
  unfold pret. rewrite Nat2N.id. reflexivity.
Qed.

Lemma enc_nat_nonempty x : enc_nat x <> [].
Proof. unfold enc_nat, enc_u64. rewrite le_bytes_S. discriminate. Qed.

(** [c] written as [64 * q + d]: the UTF-8 bytes carry the base-64 digits of
    the scalar value *)
Lemma base64 c : exists q d, (c = 64 * q + d /\ d < 64 /\ c / 64 = q /\ c mod 64 = d)%N.
Proof.
  exists (c / 64)%N, (c mod 64)%N.
  split; [apply N.div_mod'|]. split; [apply N.mod_lt; discriminate|]. split; reflexivity.
Qed.

Lemma add_sub_l n m : (n + m - n = m)%N.
Proof. rewrite N.add_comm. apply N.add_sub. Qed.

Lemma is_cont_digit d : (d < 64)%N -> is_cont (128 + d) = true.
Proof. unfold is_cont. lia. Qed.

(** the decoder on the four byte patterns; the second byte is restricted
    after E0 and F0 (no overlong form), ED (no surrogate) and F4 (nothing
    above 10FFFF) *)
Lemma pchar_1 c r : (c < 128)%N -> pchar (c :: r) = DOk c r.
Proof.
  intros H. unfold pchar. cbn [pbind pbyte].
  replace (c <? 128)%N with true by lia. reflexivity.
Qed.

Lemma pchar_2 q d0 r :
  (2 <= q < 32)%N -> (d0 < 64)%N ->
  pchar (192 + q :: 128 + d0 :: r)%N = DOk (q * 64 + d0)%N r.
Proof.
  intros Hq H0. unfold pchar. cbn [pbind pbyte].
  replace (192 + q <? 128)%N with false by lia.
  replace ((194 <=? 192 + q) && (192 + q <=? 223))%N with true by lia.
  cbn [pbind pbyte]. rewrite is_cont_digit, !add_sub_l by assumption. reflexivity.
Qed.

Lemma pchar_3 q d1 d0 r :
  (q < 16)%N -> (d1 < 64)%N -> (d0 < 64)%N ->
  (q = 0 -> 32 <= d1)%N -> (q = 13 -> d1 < 32)%N ->
  pchar (224 + q :: 128 + d1 :: 128 + d0 :: r)%N = DOk (q * 4096 + d1 * 64 + d0)%N r.
Proof.
  intros Hq H1 H0 Lo Hi. unfold pchar. cbn [pbind pbyte].
  replace (224 + q <? 128)%N with false by lia.
  replace ((194 <=? 224 + q) && (224 + q <=? 223))%N with false by lia.
  replace ((224 <=? 224 + q) && (224 + q <=? 239))%N with true by lia.
  cbn [pbind pbyte]. rewrite !is_cont_digit, andb_true_r, !add_sub_l by assumption.
  destruct (N.eqb_spec (224 + q) 224); [replace (_ && _) with true by lia|
    destruct (N.eqb_spec (224 + q) 237); [replace (_ && _) with true by lia|]];
    reflexivity.
Qed.

Lemma pchar_4 q d2 d1 d0 r :
  (q <= 4)%N -> (d2 < 64)%N -> (d1 < 64)%N -> (d0 < 64)%N ->
  (q = 0 -> 16 <= d2)%N -> (q = 4 -> d2 < 16)%N ->
  pchar (240 + q :: 128 + d2 :: 128 + d1 :: 128 + d0 :: r)%N
  = DOk (q * 262144 + d2 * 4096 + d1 * 64 + d0)%N r.
Proof.
  intros Hq H2 H1 H0 Lo Hi. unfold pchar. cbn [pbind pbyte].
  replace (240 + q <? 128)%N with false by lia.
  replace ((194 <=? 240 + q) && (240 + q <=? 223))%N with false by lia.
  replace ((224 <=? 240 + q) && (240 + q <=? 239))%N with false by lia.
  replace ((240 <=? 240 + q) && (240 + q <=? 244))%N with true by lia.
  cbn [pbind pbyte]. rewrite !is_cont_digit, !andb_true_r, !add_sub_l by assumption.
  destruct (N.eqb_spec (240 + q) 240); [replace (_ && _) with true by lia|
    destruct (N.eqb_spec (240 + q) 244); [replace (_ && _) with true by lia|]];
    reflexivity.
Qed.

(** every scalar value, in its length class: with [c / 4096] read as
    [c / 64 / 64] the bytes are built from the digits [d0], [d1], [d2] and
    what is left, and no step has to reason about division *)
Lemma pchar_utf8 c : is_scalar c = true -> reads pchar (utf8_enc c) c.
Proof.
  unfold is_scalar, utf8_enc. intros Hs r.
  assert (Hc : (c < 55296 \/ 57343 < c < 1114112)%N) by lia. clear Hs.
  change 4096%N with (64 * 64)%N. change 262144%N with (64 * 64 * 64)%N.
  rewrite <- !N.div_div by discriminate.
  destruct (N.ltb_spec c 128); [apply pchar_1; assumption|].
  destruct (base64 c) as (c1 & d0 & Ec & D0 & -> & ->).
  destruct (N.ltb_spec c 2048); [cbn [app]; rewrite pchar_2 by lia; f_equal; lia|].
  destruct (base64 c1) as (c2 & d1 & Ec1 & D1 & -> & ->).
  destruct (N.ltb_spec c 65536); [cbn [app]; rewrite pchar_3 by lia; f_equal; lia|].
  destruct (base64 c2) as (c3 & d2 & Ec2 & D2 & -> & ->).
  cbn [app]. rewrite pchar_4 by lia. f_equal. lia.
Qed.

Lemma utf8_enc_nonempty c : utf8_enc c <> [].
Proof.
  unfold utf8_enc.
  destruct (c <? 128)%N; [discriminate|].
  destruct (c <? 2048)%N; [discriminate|].
  destruct (c <? 65536)%N; discriminate.
Qed.

Lemma ptimes_rt {A} (p : parser A) (enc : A -> list N) xs :
  (forall x, In x xs -> reads p (enc x) x) ->
  reads (ptimes (length xs) p) (concat (map enc xs)) xs.
Proof.
  induction xs as [|x xs IH]; intros H; cbn [length ptimes map concat]; [apply reads_ret|].
  eapply reads_bind; [apply H; left; reflexivity|].
  apply reads_map, IH. intros y Hy. apply H. right. exact Hy.
Qed.

Lemma prepeat_rt {A} (p : parser A) (enc : A -> list N) xs : forall fuel,
  (forall x, In x xs -> reads p (enc x) x) -> length xs <= fuel ->
  reads (prepeat fuel (N.of_nat (length xs)) p) (concat (map enc xs)) xs.
Proof.
  induction xs as [|x xs IH]; intros fuel H Hf r; rewrite prepeat_eq; [reflexivity|].
  destruct fuel as [|fuel]; [simpl in Hf; lia|]. cbn [length map concat] in *.
  destruct (count_succ (length xs)) as [-> ->]. revert r.
  eapply reads_bind; [apply H; left; reflexivity|].
  apply reads_map, IH; [|lia]. intros y Hy. apply H. right. exact Hy.
Qed.

(** every element takes at least one byte, so there are at most as many
    elements as bytes: the fuel [S (length input)] never runs out *)
Lemma pseq_rt {A} (p : parser A) (enc : A -> list N) xs :
  (N.of_nat (length xs) < two64)%N -> (forall x, enc x <> []) ->
  (forall x, In x xs -> reads p (enc x) x) ->
  reads (pseq p) (enc_nat (length xs) ++ concat (map enc xs)) xs.
Proof.
  intros Hlen Hne H. eapply reads_bind; [apply pu64_rt, Hlen|].
  apply (reads_fuel (fun f => prepeat f _ p)). intros f Hf. apply prepeat_rt; [exact H|].
  pose proof (length_concat_ge enc xs Hne). lia.
Qed.

Lemma pbyte_rt b r : pbyte ([b] ++ r) = DOk b r.
Proof. reflexivity. Qed.

Lemma pseq_pbyte_rt l :
  (N.of_nat (length l) < two64)%N -> reads (pseq pbyte) (enc_nat (length l) ++ l) l.
Proof.
  intros H. rewrite <- (concat_singletons l) at 2.
  apply pseq_rt; [exact H|discriminate|]. intros b _. exact (pbyte_rt b).
Qed.

Lemma ptimes_pbyte_rt l : reads (ptimes (length l) pbyte) l l.
Proof.
  rewrite <- (concat_singletons l) at 2. apply ptimes_rt. intros b _. exact (pbyte_rt b).
Qed.

Lemma plabel_rt l : wf_label l = true -> reads plabel (enc_label l) l.
Proof.
  intros H. unfold plabel.
  destruct l as [c|n|cs]; cbn [enc_label wf_label] in *;
    (eapply reads_bind; [apply pu32_rt; reflexivity|]); cbv [N.eqb Pos.eqb]; apply reads_map.
  - apply pchar_utf8, H.
  - apply pu64_rt. apply N.leb_le in H. unfold usize_max in H. unfold two64. lia.
  - apply andb_true_iff in H as [H8 Hs]. apply Nat.eqb_eq in H8. rewrite <- H8.
    apply ptimes_rt. intros x Hx. apply pchar_utf8. rewrite forallb_forall in Hs. auto.
Qed.

Lemma phex_rt lim h :
  (lim <= two64)%N -> wf_hex_img lim h -> reads (phex lim) (enc_hex h) h.
Proof.
  intros Hl [Hw Hn]. unfold phex.
  destruct h as [l|a n]; cbn [enc_hex wf_hex] in *;
    (eapply reads_bind; [apply pu32_rt; reflexivity|]); cbv [N.eqb Pos.eqb].
  - apply reads_map, pseq_pbyte_rt, Hn.
  - apply andb_true_iff in Hw as [Hw _]. apply andb_true_iff in Hw as [H8 _].
    apply Nat.eqb_eq in H8. rewrite <- H8.
    eapply reads_bind; [apply ptimes_pbyte_rt|]. apply reads_map, psmall_rt; assumption.
Qed.

Lemma ppers_rt p : reads ppers (enc_pers p) p.
Proof. intros r. destruct p; reflexivity. Qed.

Lemma pedge_rt lim e :
  (lim <= two64)%N -> wf_edge_img lim e -> reads (pedge lim) (enc_edge e) e.
Proof.
  intros Hl [Ha Hv]. destruct e as [a v].
  eapply reads_bind; [apply plabel_rt, Ha|]. apply reads_map, psmall_rt; assumption.
Qed.

Lemma enc_edge_nonempty e : enc_edge e <> [].
Proof. destruct e as [[c|k|cs] v]; discriminate. Qed.

Lemma pedges_loop_rt lim n es : forall fuel acc,
  (lim <= two64)%N -> Forall (wf_edge_img lim) es ->
  NoDup (map fst (acc ++ es)) -> length (acc ++ es) <= n -> length es <= fuel ->
  reads (pedges_loop fuel (N.of_nat (length es)) lim n acc) (concat (map enc_edge es)) (acc ++ es).
Proof.
  induction es as [|[a v] es IH]; intros fuel acc Hl Hwf Hnd Hn Hf r; rewrite pedges_loop_eq.
  - rewrite app_nil_r. reflexivity.
  - destruct fuel as [|fuel]; [simpl in Hf; lia|]. cbn [length map concat] in *.
    destruct (count_succ (length es)) as [-> ->]. inversion Hwf as [|? ? He Hes]; subst.
    assert (Hfresh : ~ In a (map fst acc)).
    { rewrite map_app in Hnd. apply NoDup_remove_2 in Hnd. rewrite in_app_iff in Hnd. tauto. }
    assert (Hlen : length acc < n) by (rewrite app_length in Hn; simpl in Hn; lia).
    replace (acc ++ (a, v) :: es) with ((acc ++ [(a, v)]) ++ es) in *
      by (rewrite <- app_assoc; reflexivity).
    revert r. eapply reads_bind; [apply pedge_rt; assumption|]. cbn [fst snd].
    rewrite (mm_insert_fresh n acc a v Hfresh Hlen). apply IH; auto. lia.
Qed.

Lemma pedges_rt lim n es :
  (lim <= two64)%N -> (N.of_nat n < two64)%N ->
  Forall (wf_edge_img lim) es -> NoDup (map fst es) -> length es <= n ->
  reads (pedges lim n) (enc_nat (length es) ++ concat (map enc_edge es)) es.
Proof.
  intros Hl Hn Hwf Hnd Hlen. eapply reads_bind; [apply pu64_rt; lia|].
  apply (reads_fuel (fun f => pedges_loop f _ lim n [])). intros f Hf.
  apply (pedges_loop_rt lim n es f []); auto.
  pose proof (length_concat_ge enc_edge es enc_edge_nonempty). lia.
Qed.

Lemma pvertex_rt lim n x :
  (lim <= two64)%N -> (N.of_nat n < two64)%N -> wf_vertex_img lim n x ->
  reads (pvertex lim n) (enc_vertex x) x.
Proof.
  intros Hl Hn (Hb & Hd & Hnd & Hlen & He). destruct x as [b d p e].
  eapply reads_bind; [apply psmall_rt; assumption|].
  eapply reads_bind; [apply phex_rt; assumption|].
  eapply reads_bind; [apply ppers_rt|]. apply reads_map, pedges_rt; assumption.
Qed.

Lemma enc_vertex_nonempty x : enc_vertex x <> [].
Proof. apply app_nonempty_l, enc_nat_nonempty. Qed.

Lemma pstack_rt lim m :
  (lim <= two64)%N -> wf_stack_img lim m -> reads (pstack lim) (enc_stack m) m.
Proof.
  intros Hl [H16 Hm]. eapply reads_bind; [apply pu64_rt; unfold two64; lia|].
  apply (reads_fuel (fun f => pbind (prepeat f _ _) _)). intros f Hf.
  rewrite N.min_l by lia. replace (N.of_nat (length m) <=? 16)%N with true by lia.
  apply (reads_map _ (fun m => m)), prepeat_rt.
  - intros x Hx. apply psmall_rt; [exact Hl|]. rewrite Forall_forall in Hm. auto.
  - pose proof (length_concat_ge enc_nat m enc_nat_nonempty). lia.
Qed.

Lemma enc_stack_nonempty m : enc_stack m <> [].
Proof. apply app_nonempty_l, enc_nat_nonempty. Qed.

(** *** the emap visitor on the entries (s, x0), (s+1, x1), ... *)

Lemma distinct_keys_combine {A} (l : list A) : forall s,
  distinct_keys (combine (seq s (length l)) l) = seq s (length l).
Proof.
  induction l as [|x l IH]; intros s; [reflexivity|].
  cbn [length seq combine distinct_keys]. rewrite IH.
  rewrite mem_seq_below by lia. reflexivity.
Qed.

Lemma assoc_last_below {A} (l : list A) : forall s k,
  k < s -> assoc_last (combine (seq s (length l)) l) k = None.
Proof.
  induction l as [|x l IH]; intros s k H; [reflexivity|].
  cbn [length seq combine assoc_last].
  rewrite IH by lia. destruct (Nat.eqb_spec s k); [lia|reflexivity].
Qed.

Lemma collect_slots_cons {A} k (v : A) kvs ks :
  ~ In k ks -> collect_slots ((k, v) :: kvs) ks = collect_slots kvs ks.
Proof.
  induction ks as [|k' ks IH]; intros H; [reflexivity|]. cbn [collect_slots assoc_last].
  rewrite IH by (intros Hi; apply H; right; exact Hi).
  destruct (assoc_last kvs k'); [reflexivity|].
  destruct (Nat.eqb_spec k k') as [->|]; [destruct H; left; reflexivity|reflexivity].
Qed.

Lemma collect_slots_combine {A} (l : list A) : forall s,
  collect_slots (combine (seq s (length l)) l) (seq s (length l)) = Some l.
Proof.
  induction l as [|x l IH]; intros s; [reflexivity|].
  cbn [length seq combine collect_slots assoc_last].
  rewrite assoc_last_below, Nat.eqb_refl by lia.
  rewrite collect_slots_cons, IH; [reflexivity|]. rewrite in_seq. lia.
Qed.

Lemma emap_build_combine {A} (l : list A) :
  emap_build (combine (iota (length l)) l) = Some l.
Proof.
  unfold emap_build, iota. rewrite distinct_keys_combine, seq_length.
  replace (forallb _ _) with true; [apply collect_slots_combine|].
  symmetry. apply forallb_forall. intros [k v] Hin. cbn [fst].
  apply in_combine_l, in_seq in Hin. apply Nat.ltb_lt. lia.
Qed.

(** the (key, value) entry parser of [pemap] *)
Definition pentry {A} (lim : N) (p : parser A) : parser (nat * A) :=
  k <~ psmall lim ;; v <~ p ;; pret (k, v).

Lemma pemap_pentry {A} lim (p : parser A) :
  pemap lim p =
  (kvs <~ pseq (pentry lim p) ;;
   match emap_build kvs with Some l => pret l | None => pfail DPanic end).
Proof. reflexivity. Qed.

Lemma pentry_rt {A} lim (p : parser A) (enc : A -> list N) k v :
  (lim <= two64)%N -> wf_num lim k -> reads p (enc v) v ->
  reads (pentry lim p) (enc_nat k ++ enc v) (k, v).
Proof.
  intros Hl Hk Hv. eapply reads_bind; [apply psmall_rt; assumption|]. apply reads_map, Hv.
Qed.

Lemma pemap_rt {A} lim (p : parser A) (enc : A -> list N) l :
  (lim <= two64)%N -> wf_num lim (length l) ->
  (forall x, In x l -> reads p (enc x) x) ->
  reads (pemap lim p) (enc_emap enc l) l.
Proof.
  unfold wf_num. intros Hl Hlen H r. rewrite pemap_pentry. unfold enc_emap, pbind.
  assert (length (combine (iota (length l)) l) = length l) as Hc
    by (rewrite combine_length; unfold iota; rewrite seq_length; lia).
  rewrite <- Hc at 1. rewrite pseq_rt.
  - rewrite emap_build_combine. reflexivity.
  - rewrite Hc. lia.
  - intros kv. apply app_nonempty_l, enc_nat_nonempty.
  - intros [k v] Hin. apply in_combine_l in Hin as Hk. apply in_seq in Hk. cbn [fst snd].
    apply pentry_rt; [exact Hl | unfold wf_num; lia | apply H, (in_combine_r _ _ _ _ Hin)].
Qed.

Lemma psodg_rt lim n g :
  wf_image_state lim n g -> reads (psodg lim n) (encode g) (set_next g 0).
Proof.
  intros (Hl & Hn & H1 & H2 & H3 & H4 & H5 & H6). rewrite Forall_forall in H4, H5, H6.
  unfold psodg, encode.
  eapply reads_bind; [apply pemap_rt; auto using psmall_rt|].
  eapply reads_bind; [apply pemap_rt; auto using pstack_rt|].
  apply (reads_map _ (fun vs => mkG _ _ vs 0)), pemap_rt; auto using pvertex_rt.
Qed.

Lemma load_save lim n g :
  wf_image_state lim n g ->
  decode lim n (encode g) = LOk (mkG (g_stores g) (g_branches g) (g_vertices g) 0).
Proof.
  intros H. unfold decode. rewrite <- (app_nil_r (encode g)).
  rewrite (psodg_rt lim n g H). reflexivity.
Qed.

(** ** Appending bytes, cutting bytes

    A run that ends in anything but [DEof] has seen all the bytes it will ever
    look at ([ext_stable]).  [prepeat] and [pedges_loop] answer [DEof] also
    when their fuel is used up.  The element parsers they are run with take at
    least one byte when they succeed ([consumes]), and then any two fuels
    above the input length give the same result: a [DEof] is never the fuel
    [S (length input)] of [pseq], [pedges], [pstack] running out.  Where the
    fuel comes from the input the first fact needs the second, so the two are
    shown together, parser by parser ([regular]). *)

(** the result [d] of a run, had [e] been appended to the input *)
Definition dapp {A} (d : dres A) (e : list N) : dres A :=
  match d with
  | DOk a r => DOk a (r ++ e)
  | DEof => DEof
  | DInvalid => DInvalid
  | DPanic => DPanic
  | DUnmod => DUnmod
  end.

Definition ext_stable {A} (p : parser A) : Prop :=
  forall l e, p l <> DEof -> p (l ++ e) = dapp (p l) e.

Definition consumes {A} (p : parser A) : Prop :=
  forall l a r, p l = DOk a r -> length r < length l.

(** stable, and a successful run takes at least [k] bytes; [k] is 0 or 1 *)
Definition regular {A} (k : nat) (p : parser A) : Prop :=
  ext_stable p /\ forall l a r, p l = DOk a r -> k + length r <= length l.

Lemma regular_ext {A} k (p : parser A) : regular k p -> ext_stable p.
Proof. intros [H _]. exact H. Qed.

Lemma regular_consumes {A} (p : parser A) : regular 1 p -> consumes p.
Proof. intros [_ H]. exact H. Qed.

Lemma regular_weaken {A} (p : parser A) : regular 1 p -> regular 0 p.
Proof. intros [He H]. split; [exact He|]. intros l a r E. apply H in E. lia. Qed.

Lemma regular_eq {A} k (p q : parser A) : (forall l, p l = q l) -> regular k q -> regular k p.
Proof. intros E [He H]. split; [intros l e|intros l]; rewrite !E; [apply He|apply H]. Qed.

Lemma regular_ret {A} (a : A) : regular 0 (pret a).
Proof.
  split; [intros l e _; reflexivity|]. intros l a' r E. injection E as _ <-. simpl. lia.
Qed.

Lemma regular_fail {A} k (d : dres A) : (forall a r, d <> DOk a r) -> regular k (pfail d).
Proof.
  intros Hd. split.
  - intros l e _. unfold pfail. destruct d as [a r| | | |]; try reflexivity.
    destruct (Hd a r eq_refl).
  - intros l a r E. destruct (Hd a r E).
Qed.

Lemma regular_byte : regular 1 pbyte.
Proof.
  split.
  - intros [|b t] e H; [simpl in H; congruence|reflexivity].
  - intros [|b t] a r E; inversion E; subst. simpl. lia.
Qed.

Lemma pbind_ok {A B} (p : parser A) (f : A -> parser B) l b r :
  pbind p f l = DOk b r -> exists a r1, p l = DOk a r1 /\ f a r1 = DOk b r.
Proof. unfold pbind. destruct (p l) as [a r1| | | |]; try discriminate. eauto. Qed.

(** of the bytes a [pbind] takes only those of its first parser are counted *)
Lemma regular_bind {A B} k (p : parser A) (f : A -> parser B) :
  regular k p -> (forall a, regular 0 (f a)) -> regular k (pbind p f).
Proof.
  intros [Hp Kp] Hf. split.
  - intros l e H. unfold pbind in *. specialize (Hp l e).
    destruct (p l) as [a r| | | |] eqn:E; try (rewrite Hp by discriminate; reflexivity).
    + rewrite Hp by discriminate. simpl. apply Hf. exact H.
    + congruence.
  - intros l b r E. apply pbind_ok in E as (a & r1 & E1 & E2).
    apply Kp in E1. apply Hf in E2. lia.
Qed.

Lemma regular_if {A} k (b : bool) (p q : parser A) :
  regular k p -> regular k q -> regular k (if b then p else q).
Proof. destruct b; auto. Qed.

(** the fuel taken from the length of the input: a longer input means more
    fuel, which changes nothing when the fuel does not decide *)
Lemma regular_fuel {A} k (F : nat -> parser A) :
  (forall f, regular k (F f)) ->
  (forall f f' l, length l < f -> length l < f' -> F f l = F f' l) ->
  regular k (fun l => F (S (length l)) l).
Proof.
  intros H Hf. split; [|intros l; apply H].
  intros l e. cbv beta.
  rewrite (Hf (S (length l)) (S (length (l ++ e))) l) by (rewrite ?app_length; lia).
  apply H.
Qed.

(** [parse] holds what proves [regular] by the shape of a parser: the rules
    for [pret], [pfail], [pbyte], [pbind] and [if] above, and the lemma of each
    parser of Serial.v, added right after its proof because the parsers built
    from it come next.  For a parser put together from these, [auto with
    parse] after unfolding its name is that structural argument; every [pbind]
    and [if] on the way to a leaf takes one level of the search, of which
    [pchar], the deepest, needs 11 of the 20 allowed.  The loops, and the
    parsers that take their fuel from the input, are done by hand.

    [discriminated]: hints are matched against the goal as written, no
    constant being unfolded, so the name of a parser stands for its lemma until
    a proof unfolds it to go by the shape.  [regular_weaken] has the higher
    cost 5: [regular 0] of a parser is looked for by its shape first, and in
    the fact that it takes a byte only when no shape rule applies.
    [regular_consumes] makes [consumes p] a question for [parse] too. *)
Create HintDb parse discriminated.
#[export] Hint Extern 0 (forall _ _, _ <> DOk _ _) => discriminate : parse.
#[export] Hint Resolve regular_ret regular_fail regular_byte regular_bind regular_if
  regular_consumes : parse.
#[export] Hint Resolve regular_weaken | 5 : parse.

Lemma regular_ple k : regular 0 (ple k).
Proof. induction k as [|k IH]; cbn [ple]; auto 20 with parse. Qed.

Lemma regular_ple_S k : regular 1 (ple (S k)).
Proof. pose proof (regular_ple k). cbn [ple]. auto 20 with parse. Qed.

Lemma regular_pu64 : regular 1 pu64.
Proof. apply regular_ple_S. Qed.
#[export] Hint Resolve regular_pu64 : parse.

Lemma regular_pu32 : regular 1 pu32.
Proof. apply regular_ple_S. Qed.
#[export] Hint Resolve regular_pu32 : parse.

Lemma regular_psmall lim : regular 1 (psmall lim).
Proof. unfold psmall. auto 20 with parse. Qed.
#[export] Hint Resolve regular_psmall : parse.

Lemma regular_ptimes {A} (p : parser A) k : regular 0 p -> regular 0 (ptimes k p).
Proof. intros H. induction k as [|k IH]; cbn [ptimes]; auto 20 with parse. Qed.
#[export] Hint Resolve regular_ptimes : parse.

Lemma regular_pchar : regular 1 pchar.
Proof. unfold pchar. auto 20 with parse. Qed.
#[export] Hint Resolve regular_pchar : parse.

Lemma regular_prepeat {A} (p : parser A) f :
  regular 0 p -> forall c, regular 0 (prepeat f c p).
Proof.
  intros Hp. induction f as [|f IH]; intros c;
    apply (regular_eq _ _ _ (prepeat_eq _ c p)); auto 20 with parse.
Qed.
#[export] Hint Resolve regular_prepeat : parse.

Lemma prepeat_fuel_any {A} (p : parser A) :
  consumes p ->
  forall f f' count l, length l < f -> length l < f' ->
  prepeat f count p l = prepeat f' count p l.
Proof.
  intros Hp. induction f as [|f IH]; intros f' count l H H'; [lia|].
  destruct f' as [|f']; [lia|]. cbn [prepeat].
  destruct (count =? 0)%N; [reflexivity|].
  unfold pbind. destruct (p l) as [x r| | | |] eqn:E; try reflexivity.
  apply Hp in E. rewrite (IH f' (count - 1)%N r) by lia. reflexivity.
Qed.

Lemma regular_pseq {A} (p : parser A) : regular 1 p -> regular 1 (pseq p).
Proof.
  intros Hp. apply regular_bind; [apply regular_pu64|]. intros c.
  apply (regular_fuel 0 (fun f => prepeat f c p)); [auto with parse|].
  intros f f'. apply prepeat_fuel_any, regular_consumes, Hp.
Qed.
#[export] Hint Resolve regular_pseq : parse.

Lemma regular_plabel : regular 1 plabel.
Proof. unfold plabel. auto 20 with parse. Qed.
#[export] Hint Resolve regular_plabel : parse.

Lemma regular_phex lim : regular 1 (phex lim).
Proof. unfold phex. auto 20 with parse. Qed.
#[export] Hint Resolve regular_phex : parse.

Lemma regular_ppers : regular 1 ppers.
Proof. unfold ppers. auto 20 with parse. Qed.
#[export] Hint Resolve regular_ppers : parse.

Lemma regular_pedge lim : regular 1 (pedge lim).
Proof. unfold pedge. auto 20 with parse. Qed.
#[export] Hint Resolve regular_pedge : parse.

Lemma regular_pedges_loop lim n f : forall c acc, regular 0 (pedges_loop f c lim n acc).
Proof.
  induction f as [|f IH]; intros c acc;
    apply (regular_eq _ _ _ (pedges_loop_eq _ c lim n acc)); [auto with parse|].
  apply regular_if; [apply regular_ret|].
  apply regular_bind; [apply regular_weaken, regular_pedge|].
  intros e. destruct (mm_insert n acc (fst e) (snd e)); auto with parse.
Qed.

Lemma pedges_loop_fuel_any lim n :
  forall f f' count acc l, length l < f -> length l < f' ->
  pedges_loop f count lim n acc l = pedges_loop f' count lim n acc l.
Proof.
  induction f as [|f IH]; intros f' count acc l H H'; [lia|].
  destruct f' as [|f']; [lia|]. cbn [pedges_loop].
  destruct (count =? 0)%N; [reflexivity|].
  unfold pbind. destruct (pedge lim l) as [x r| | | |] eqn:E; try reflexivity.
  apply (regular_consumes _ (regular_pedge lim)) in E.
  destruct (mm_insert n acc (fst x) (snd x)); try reflexivity.
  apply IH; lia.
Qed.

Lemma regular_pedges lim n : regular 1 (pedges lim n).
Proof.
  apply regular_bind; [apply regular_pu64|]. intros c.
  apply (regular_fuel 0 (fun f => pedges_loop f c lim n [])).
  - intros f. apply regular_pedges_loop.
  - intros f f'. apply pedges_loop_fuel_any.
Qed.
#[export] Hint Resolve regular_pedges : parse.

Lemma regular_pvertex lim n : regular 1 (pvertex lim n).
Proof. unfold pvertex. auto 20 with parse. Qed.
#[export] Hint Resolve regular_pvertex : parse.

Lemma regular_pstack lim : regular 1 (pstack lim).
Proof.
  apply regular_bind; [apply regular_pu64|]. intros c.
  apply (regular_fuel 0 (fun f => pbind (prepeat f _ _) _)).
  - auto 20 with parse.
  - intros f f' l H H'. unfold pbind.
    rewrite (prepeat_fuel_any _ (regular_consumes _ (regular_psmall lim)) f f') by assumption.
    reflexivity.
Qed.
#[export] Hint Resolve regular_pstack : parse.

Lemma regular_pentry {A} lim (p : parser A) : regular 0 p -> regular 1 (pentry lim p).
Proof. intros Hp. unfold pentry. auto 20 with parse. Qed.
#[export] Hint Resolve regular_pentry : parse.

Lemma regular_pemap {A} lim (p : parser A) : regular 0 p -> regular 1 (pemap lim p).
Proof.
  intros Hp. rewrite pemap_pentry. apply regular_bind; [auto with parse|].
  intros kvs. destruct (emap_build kvs); auto with parse.
Qed.
#[export] Hint Resolve regular_pemap : parse.

Lemma regular_psodg lim n : regular 1 (psodg lim n).
Proof. unfold psodg. auto 20 with parse. Qed.

Lemma ext_psodg lim n : ext_stable (psodg lim n).
Proof. exact (regular_ext _ _ (regular_psodg lim n)). Qed.

(** *** a complete parse that uses up its input: every proper prefix is [DEof] *)

Lemma ext_stable_prefix {A} (p : parser A) l e a r :
  ext_stable p -> p (l ++ e) = DOk a r ->
  p l = DEof \/ exists r', p l = DOk a r' /\ r = r' ++ e.
Proof.
  intros H E. specialize (H l e).
  destruct (p l) as [a' r'| | | |] eqn:El; auto; right;
    rewrite H in E by discriminate; simpl in E; try discriminate.
  inversion E; subst. eauto.
Qed.

Lemma cut_is_eof {A} (p : parser A) img a :
  ext_stable p -> p img = DOk a [] ->
  forall k, k < length img -> p (firstn k img) = DEof.
Proof.
  intros He Hp k Hk.
  rewrite <- (firstn_skipn k img) in Hp.
  destruct (ext_stable_prefix p _ _ _ _ He Hp) as [E|(r' & _ & E)]; [exact E|].
  exfalso. symmetry in E. apply app_eq_nil in E as [_ E].
  apply (f_equal (@length N)) in E. rewrite skipn_length in E. simpl in E. lia.
Qed.

Lemma psodg_cut lim n g k :
  wf_image_state lim n g -> k < length (encode g) ->
  psodg lim n (firstn k (encode g)) = DEof.
Proof.
  intros H. apply (cut_is_eof _ _ (set_next g 0) (ext_psodg lim n)).
  rewrite <- (app_nil_r (encode g)). apply psodg_rt, H.
Qed.

Lemma load_cut lim n g k :
  wf_image_state lim n g -> k < length (encode g) ->
  decode lim n (firstn k (encode g)) = LErr.
Proof.
  intros H Hk. unfold decode. rewrite (psodg_cut lim n g k H Hk). reflexivity.
Qed.

(** ** a concrete state for the non-vacuity examples: a heap datum of ten
    bytes, an inline datum with two used bytes, edges with Greek labels of
    two, three and four UTF-8 bytes, a string label and an index label, a
    group with two members and two unread data, allocator position 3 *)

Definition example_graph : sodg :=
  mkG [0; 0; 2]
      [[0]; [0]; [0; 1]]
      [ mkV 2 (HVector [1; 2; 3; 4; 5; 6; 7; 8; 9; 10]%N) PStored
            [(Greek 961, 1); (LStr [104; 101; 108; 108; 111; 32; 32; 32]%N, 2)];
        mkV 2 (HBytes [202; 254; 0; 0; 0; 0; 0; 0]%N 2) PStored
            [(Alpha 7, 2); (Greek 128512, 0); (Greek 8364, 1)];
        mkV 1 hex_empty PEmpty [] ]
      3.

Definition is_lerr (r : load_result) : bool :=
  match r with LErr => true | _ => false end.

Example example_wf : wf_image_state 1048576 4 example_graph.
Proof. apply wf_image_stateb_spec. vm_compute. reflexivity. Qed.

Example example_image_size : length (encode example_graph) = 383.
Proof. vm_compute. reflexivity. Qed.
