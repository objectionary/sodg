(** * SliceFacts: the closure loop of [slice_some] computes exactly the set of
    vertices reachable along accepted edges, whatever order [HashSet::drain]
    yields, and stops within the fuel of the model -- reachability half of
    property C13.  Of the rebuild loop only that it keeps the capacity, which
    needs no hypothesis ([slice_some_cap]); what it builds is in SliceFacts2.v. *)

From Sodg Require Export Reach.
From Sodg Require Import Shape Inv.

Definition targets (p : pred) (u : nat) (es : edges) : list nat :=
  map snd (filter (fun e : label * nat => p u (snd e) (fst e)) es).

Lemma in_targets p u es x :
  In x (targets p u es) <-> exists a, In (a, x) es /\ p u x a = true.
Proof.
  unfold targets. rewrite in_map_iff. split.
  - intros ([a y] & <- & H). apply filter_In in H. exists a. exact H.
  - intros (a & H). exists (a, x). split; [reflexivity|]. apply filter_In. exact H.
Qed.

Lemma scan_edges_spec p u es : forall done todo done' todo',
  scan_edges p u es done todo = (done', todo') ->
  (NoDup done -> NoDup done')
  /\ (forall x, In x done' <-> In x done \/ In x (targets p u es))
  /\ (forall x, In x todo' <-> In x todo \/ In x done' /\ ~ In x done).
Proof.
  induction es as [|[a to] rest IH]; intros done todo done' todo' H; cbn [scan_edges] in H.
  - injection H as <- <-. cbn. tauto.
  - unfold targets. cbn [filter fst snd]. fold (targets p u rest).
    destruct (mem to done) eqn:M.
    + (* [to] is in [done] already: accepted or not, it adds nothing *)
      apply mem_In in M. destruct (IH _ _ _ _ H) as (N & D & T).
      split; [exact N|]. split; [|exact T].
      intros x. rewrite D. destruct (p u to a); cbn [map In snd]; [|tauto].
      split; [tauto|]. intros [Hx|[<-|Hx]]; tauto.
    + apply mem_false in M. destruct (p u to a) eqn:P; cbn [negb] in H; [|exact (IH _ _ _ _ H)].
      (* [to] is new and accepted *)
      destruct (IH _ _ _ _ H) as (N & D & T). cbn [map In snd].
      split; [intros Hn; apply N; constructor; assumption|].
      split; [intros x; rewrite D; cbn [In]; tauto|].
      intros x. rewrite T. cbn [In].
      assert (Hto : In to done') by (apply D; left; left; reflexivity).
      destruct (Nat.eq_dec to x) as [<-|Hne]; tauto.
Qed.

(** the [for v in before] loop; from the second round on ([closure_start])
    [before] is part of [done] *)
Lemma scan_batch_spec p g before : forall done todo,
  incl before done -> (forall x, In x before -> x < cap_of g) ->
  exists done' todo',
    scan_batch p g before done todo = Ok (done', todo')
    /\ (NoDup done -> NoDup done')
    /\ (forall x, In x done' <-> In x done \/ In x (flat_map (fun u => targets p u (edg g u)) before))
    /\ (forall x, In x todo' <-> In x todo \/ In x done' /\ ~ In x done).
Proof.
  induction before as [|v rest IH]; intros done todo Hin Hlt.
  - exists done, todo. cbn. tauto.
  - cbn [scan_batch]. rewrite chk_v_ok by (apply Hlt; left; reflexivity). cbn [obind].
    rewrite (proj2 (mem_In v done)) by (apply Hin; left; reflexivity).
    destruct (scan_edges p v (edg g v) done todo) as [d1 t1] eqn:E.
    apply scan_edges_spec in E as (N1 & D1 & T1).
    destruct (IH d1 t1) as (done' & todo' & Eq & N & D & T).
    { intros x Hx. apply D1. left. apply Hin. right; exact Hx. }
    { intros x Hx. apply Hlt. right; exact Hx. }
    exists done', todo'. split; [exact Eq|]. split; [tauto|].
    split; intros x; [rewrite D, D1; cbn [flat_map]; rewrite in_app_iff; tauto|].
    assert (H1 : In x done -> In x d1) by (rewrite D1; tauto).
    assert (H2 : In x d1 -> In x done') by (rewrite D; tauto).
    rewrite T, T1. destruct (in_dec Nat.eq_dec x d1); tauto.
Qed.

Lemma scan_batch_panic p g : forall before done todo,
  (exists x, In x before /\ cap_of g <= x) ->
  scan_batch p g before done todo = Panic PBoundary.
Proof.
  induction before as [|v rest IH]; intros done todo (x & Hx & Hc); [destruct Hx|].
  cbn [scan_batch]. destruct (Nat.ltb_spec v (cap_of g)) as [Hv|Hv].
  - rewrite chk_v_ok by exact Hv. cbn [obind].
    destruct (scan_edges p v (edg g v) (if mem v done then done else v :: done) todo) as [d2 t2].
    apply IH. exists x. split; [|exact Hc]. destruct Hx as [->|Hx]; [lia | exact Hx].
  - rewrite chk_v_panic by exact Hv. reflexivity.
Qed.

Section Closure.
  Variable order : list nat -> list nat.
  Variable p : pred.
  Variable g : sodg.
  Variable v : nat.
  Hypothesis Horder : forall l, Permutation (order l) l.

  Lemma closure_panic fuel done todo u :
    In u todo -> cap_of g <= u -> closure (S fuel) order p g done todo = Panic PBoundary.
  Proof.
    intros Hu Hc. destruct todo as [|t ts]; [destruct Hu|]. cbn [closure].
    rewrite scan_batch_panic; [reflexivity|]. exists u. split; [|exact Hc].
    eapply Permutation_in; [apply Permutation_sym, Horder | exact Hu].
  Qed.

  (** the loop invariant: every vertex of [done] that is not waiting in [todo]
      has been expanded *)
  Record cl_inv (done todo : list nat) : Prop := {
    ci_nodup : NoDup done;
    ci_reach : forall x, In x done -> reach p g v x;
    ci_start : In v done;
    ci_todo : incl todo done;
    ci_expanded : forall u a w,
      In u done -> ~ In u todo -> In (a, w) (edg g u) -> p u w a = true -> In w done
  }.

  Lemma cl_inv_start : cl_inv [v] [v].
  Proof.
    split; auto using incl_refl, in_eq.
    - constructor; [intros []|constructor].
    - intros x [<-|[]]. apply reach_refl.
    - intros u a w Hu Hn. contradiction.
  Qed.

  Lemma cl_inv_end done : cl_inv done [] -> forall w, In w done <-> reach p g v w.
  Proof.
    intros HI w. split; [apply (ci_reach _ _ HI)|].
    apply (reach_in_closed_set p g v (fun u => In u done) (ci_start _ _ HI)).
    intros u a x Hu. apply (ci_expanded _ _ HI); auto.
  Qed.

  Lemma closure_round done todo :
    cl_inv done todo -> (forall x, In x todo -> x < cap_of g) ->
    exists done' new,
      scan_batch p g (order todo) done [] = Ok (done', new) /\ cl_inv done' new
      /\ incl done done' /\ (forall x, In x new -> ~ In x done).
  Proof.
    intros [Hnd Hr Hv Hi Hex] Hlt.
    assert (Hob : forall x, In x (order todo) <-> In x todo).
    { intros x. split; apply Permutation_in; [apply Horder | apply Permutation_sym, Horder]. }
    destruct (scan_batch_spec p g (order todo) done []) as (done' & new & Eq & N & D & T).
    { intros x Hx. apply Hi, Hob, Hx. }
    { intros x Hx. apply Hlt, Hob, Hx. }
    exists done', new. split; [exact Eq|]. split; [split|split].
    - exact (N Hnd).
    - intros x Hx. apply D in Hx as [Hx|Hx]; [exact (Hr x Hx)|].
      apply in_flat_map in Hx as (u & Hu & Hx). apply in_targets in Hx as (a & Ha & Pa).
      apply Hob, Hi, Hr in Hu. exact (reach_step p g v u a x Hu Ha Pa).
    - apply D. left; exact Hv.
    - intros x Hx. apply T in Hx as [[]|[Hx _]]. exact Hx.
    - (* [u] is old: it was in [todo] and has been expanded in this round, or
         it had been expanded before *)
      intros u a w Hu Hn Ha Pa. apply D.
      destruct (in_dec Nat.eq_dec u done) as [Hd|Hd]; [|exfalso; apply Hn, T; tauto].
      destruct (in_dec Nat.eq_dec u todo) as [Ht|Ht]; [right|left; eauto].
      apply in_flat_map. exists u. split; [apply Hob, Ht|]. apply in_targets. eauto.
    - intros x Hx. apply D. left; exact Hx.
    - intros x Hx. apply T in Hx as [[]|[_ Hx]]. exact Hx.
  Qed.

  (** The fuel: a round whose [todo] lies inside the graph leaves [todo] empty
      or finds new vertices; if these lie inside the graph too, fewer slots
      are unseen; if not, the next round is the boundary panic, which needs one
      unit of fuel. *)
  Lemma closure_gen : forall fuel done todo,
    cl_inv done todo -> 1 <= fuel ->
    (todo <> [] -> (forall x, In x todo -> x < cap_of g) -> unseen (cap_of g) done + 2 <= fuel) ->
    (exists done',
       closure fuel order p g done todo = Ok done'
       /\ NoDup done' /\ (forall w, In w done' <-> reach p g v w))
    \/ (closure fuel order p g done todo = Panic PBoundary
        /\ exists u, reach p g v u /\ cap_of g <= u).
  Proof.
    induction fuel as [|f IH]; intros done todo HI Hf1 Hf2; [lia|].
    destruct todo as [|t ts].
    { left. exists done. split; [reflexivity|]. split; [exact (ci_nodup _ _ HI) | exact (cl_inv_end done HI)]. }
    set (todo := t :: ts) in *.
    destruct (Forall_Exists_dec (fun x => x < cap_of g) (fun x => lt_dec x (cap_of g)) todo) as [Hlt|Hge].
    2:{ right. apply Exists_exists in Hge as (x & Hx & Hc). apply Nat.nlt_ge in Hc.
        split; [exact (closure_panic f done todo x Hx Hc) | exists x; split; [|exact Hc]].
        apply (ci_reach _ _ HI), (ci_todo _ _ HI), Hx. }
    rewrite Forall_forall in Hlt. specialize (Hf2 ltac:(discriminate) Hlt).
    destruct (closure_round done todo HI Hlt) as (done' & new & Eq & HI' & Hi & Hn).
    cbn [closure]. fold todo. rewrite Eq. cbn [obind fst snd]. apply IH; [exact HI'|lia|].
    intros Hne Hlt'. destruct new as [|n0 ns]; [congruence|].
    assert (unseen (cap_of g) done' < unseen (cap_of g) done); [|lia].
    apply unseen_lt with (y := n0); auto using in_eq. apply (ci_todo _ _ HI'), in_eq.
  Qed.

  (** the first round enters [v] into [done] before anything else *)
  Lemma closure_start fuel : closure fuel order p g [] [v] = closure fuel order p g [v] [v].
  Proof.
    destruct fuel as [|f]; [reflexivity|]. cbn [closure].
    rewrite (Permutation_length_1_inv (Permutation_sym (Horder [v]))).
    cbn [scan_batch mem existsb]. rewrite Nat.eqb_refl. reflexivity.
  Qed.

  (** any fuel from [unseen [v] + 2] on: that is [cap + 1] when [v] is in the graph *)
  Lemma closure_spec fuel :
    unseen (cap_of g) [v] + 2 <= fuel ->
    (exists done,
       closure fuel order p g [] [v] = Ok done
       /\ NoDup done /\ (forall w, In w done <-> reach p g v w))
    \/ (closure fuel order p g [] [v] = Panic PBoundary
        /\ exists u, reach p g v u /\ cap_of g <= u).
  Proof.
    intros Hf. rewrite closure_start. apply closure_gen; [exact cl_inv_start|lia|auto].
  Qed.

  (** [cap + 1] calls are enough (and may be needed: [closure_fuel_tight]); the
      model hands out [cap + 2] *)
  Lemma closure_correct_fuel : pclosed p g v -> forall fuel,
    cap_of g + 1 <= fuel ->
    exists done,
      closure fuel order p g [] [v] = Ok done
      /\ NoDup done /\ (forall w, In w done <-> reach p g v w).
  Proof.
    intros Hc fuel Hf. destruct (closure_spec fuel) as [H|(_ & u & Hu & Hcu)]; [|exact H|].
    - pose proof (unseen_cons (cap_of g) [] v (proj1 Hc) (fun H => H)) as L. rewrite unseen_nil in L. lia.
    - pose proof (pclosed_reach_lt p g v u Hc Hu). lia.
  Qed.
End Closure.

Theorem closure_correct : forall order p g v,
  (forall l, Permutation (order l) l) -> pclosed p g v ->
  exists done,
    closure (cap_of g + 2) order p g [] [v] = Ok done
    /\ NoDup done /\ (forall w, In w done <-> reach p g v w).
Proof. intros order p g v Ho Hc. apply closure_correct_fuel; [exact Ho | exact Hc | lia]. Qed.

Corollary closure_order_irrelevant : forall order1 order2 p g v d1 d2,
  (forall l, Permutation (order1 l) l) -> (forall l, Permutation (order2 l) l) ->
  pclosed p g v ->
  closure (cap_of g + 2) order1 p g [] [v] = Ok d1 ->
  closure (cap_of g + 2) order2 p g [] [v] = Ok d2 ->
  Permutation d1 d2.
Proof.
  intros o1 o2 p g v d1 d2 H1 H2 Hc E1 E2.
  destruct (closure_correct o1 p g v H1 Hc) as (x1 & X1 & N1 & R1).
  destruct (closure_correct o2 p g v H2 Hc) as (x2 & X2 & N2 & R2).
  rewrite E1 in X1. rewrite E2 in X2. inversion X1; inversion X2; subst.
  apply NoDup_Permutation; auto. intros x. rewrite R1, R2. tauto.
Qed.

(** Without [pclosed] a round may hit the boundary assertion of [emap], but the
    loop never runs out of fuel. *)
Theorem closure_never_out_of_fuel : forall order p g v,
  (forall l, Permutation (order l) l) ->
  (exists d, closure (cap_of g + 2) order p g [] [v] = Ok d)
  \/ closure (cap_of g + 2) order p g [] [v] = Panic PBoundary.
Proof.
  intros order p g v Ho.
  destruct (closure_spec order p g v Ho (cap_of g + 2)) as [(d & H & _)|[H _]]; eauto.
  pose proof (unseen_le (cap_of g) [] [v] (incl_nil_l _)) as H. rewrite unseen_nil in H. lia.
Qed.

(** the rebuild loop keeps the capacity (nothing is assumed about whether
    [bind] panics) *)
Lemma rebuild_edges_cap n done v1 : forall es ng ng',
  rebuild_edges n ng done v1 es = Ok ng' -> cap_of ng' = cap_of ng.
Proof.
  induction es as [|[k v2] rest IH]; intros ng ng' H; cbn [rebuild_edges] in H.
  - inversion H; reflexivity.
  - destruct (mem v2 done); [|apply IH; exact H].
    apply obind_ok in H as (ng1 & E1 & H). apply obind_ok in H as (ng2 & E2 & H).
    apply IH in H. apply op_bind_shape in E2 as [E2 _]. apply op_add_shape in E1 as [E1 _]. congruence.
Qed.

Lemma rebuild_cap n g done : forall vs ng ng',
  rebuild n g ng done vs = Ok ng' -> cap_of ng' = cap_of ng.
Proof.
  induction vs as [|v1 rest IH]; intros ng ng' H; cbn [rebuild] in H.
  - inversion H; reflexivity.
  - destruct (mem v1 done); [|apply IH; exact H].
    apply obind_ok in H as (ng1 & E1 & H). apply obind_ok in H as (ng2 & E2 & H).
    apply IH in H. apply rebuild_edges_cap in E2. apply op_add_shape in E1 as [E1 _]. congruence.
Qed.

Lemma slice_some_cap n order g v p ng :
  op_slice_some n order g v p = Ok ng -> cap_of ng = cap_of g.
Proof.
  unfold op_slice_some.
  destruct (closure (cap_of g + 2) order p g [] [v]) as [done| | |]; cbn [obind]; try discriminate.
  intros H. apply rebuild_cap in H. rewrite H. apply cap_empty.
Qed.

Lemma rev_perm {A} (l : list A) : Permutation (rev l) l.
Proof. apply Permutation_sym, Permutation_rev. Qed.

(** [closure_correct] is not vacuous *)
Example closure_cyclic_rev :
  (forall l : list nat, Permutation (rev l) l)
  /\ pclosed ptrue ex_cyclic 0
  /\ closure (cap_of ex_cyclic + 2) (@rev nat) ptrue ex_cyclic [] [0] = Ok [2; 1; 0].
Proof.
  split; [exact rev_perm|].
  split; [apply closedb_pclosed; [vm_compute; reflexivity | vm_compute; lia]|].
  vm_compute. reflexivity.
Qed.

(** with a predicate that rejects the Greek-labelled edge 1 -> 2 only 0 and 1
    are kept *)
Example closure_cyclic_pred :
  let p : pred := fun _ _ a => match a with Greek _ => false | _ => true end in
  pclosed p ex_cyclic 0
  /\ closure (cap_of ex_cyclic + 2) (@rev nat) p ex_cyclic [] [0] = Ok [1; 0]
  /\ ~ reach p ex_cyclic 0 2.
Proof.
  cbv zeta. set (p := fun (_ _ : nat) (a : label) => match a with Greek _ => false | _ => true end).
  assert (Hc : pclosed p ex_cyclic 0)
    by (apply closedb_pclosed; [vm_compute; reflexivity | vm_compute; lia]).
  split; [exact Hc|]. split; [vm_compute; reflexivity|].
  (* the loop's answer decides reachability *)
  destruct (closure_correct (@rev nat) p ex_cyclic 0 rev_perm Hc) as (d & E & _ & R).
  vm_compute in E. injection E as <-. intros H. apply R in H. destruct H as [H|[H|[]]]; discriminate.
Qed.

(** on a chain through all slots [cap + 1] calls are needed *)
Example closure_fuel_tight :
  closure (cap_of ex_chain) (fun l => l) ptrue ex_chain [] [0] = OutOfFuel
  /\ closure (cap_of ex_chain + 1) (fun l => l) ptrue ex_chain [] [0] = Ok [3; 2; 1; 0].
Proof. vm_compute. split; reflexivity. Qed.

Print Assumptions closure_correct.
Print Assumptions closure_correct_fuel.
Print Assumptions closure_order_irrelevant.
Print Assumptions slice_some_cap.
Print Assumptions closure_never_out_of_fuel.
