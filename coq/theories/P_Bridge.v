(** * Bridge: the model the driver runs is the model the theorems are about

    The correspondence check runs every graph handle through the extended
    operations [x_*] of XJoin.v (state = a state of the plain model plus the
    list of vacant slots that [Sodg::join()] leaves behind).  The property
    theorems (P_C01 .. P_C20) are about the plain operations [op_*].  This file
    states the link: on a state without vacant slots every extended operation
    IS the plain one ([xlift hs o]: the outcome [o] with the hole list [hs]
    attached), for merge whenever [op_merge] answers at all (it answers
    [Unmodelled] exactly where the code would call [join()]); holes only ever
    appear through [x_join] ([Bridge_join_holes], [Bridge_slice_no_holes]), i.e.
    through a merge of a right operand that is not a tree; the only theorems
    about such merges are [C12x_*] of P_C12.v, stated for [x_merge] itself.
    [xwf] is unfolded by [Bridge_def_xwf]; [xpres x x'] (defined next to it in
    XJoinFacts.v) says that [x'] has the capacity of [x] and is [xwf] if [x] is.
    Proofs: XJoinFacts.v.  Audited at every check of every property, like the
    property's own file. *)

From Sodg Require Import XJoinFacts.

Theorem Bridge_empty :
  forall cap, x_empty cap = mkX (op_empty cap) [].
Proof. exact x_empty_nohole. Qed.

Check Bridge_empty :
  forall cap, x_empty cap = mkX (op_empty cap) [].
Print Assumptions Bridge_empty.

Theorem Bridge_add :
  forall g v, x_add (mkX g []) v = xlift [] (op_add g v).
Proof. exact x_add_nohole. Qed.

Check Bridge_add :
  forall g v, x_add (mkX g []) v = xlift [] (op_add g v).
Print Assumptions Bridge_add.

Theorem Bridge_bind :
  forall n g v1 v2 a, x_bind n (mkX g []) v1 v2 a = xlift [] (op_bind n g v1 v2 a).
Proof. exact x_bind_nohole. Qed.

Check Bridge_bind :
  forall n g v1 v2 a, x_bind n (mkX g []) v1 v2 a = xlift [] (op_bind n g v1 v2 a).
Print Assumptions Bridge_bind.

Theorem Bridge_put :
  forall g v d, x_put (mkX g []) v d = xlift [] (op_put g v d).
Proof. exact x_put_nohole. Qed.

Check Bridge_put :
  forall g v d, x_put (mkX g []) v d = xlift [] (op_put g v d).
Print Assumptions Bridge_put.

Theorem Bridge_data :
  forall g v, x_data (mkX g []) v = xlift2 [] (op_data g v).
Proof. exact x_data_nohole. Qed.

Check Bridge_data :
  forall g v, x_data (mkX g []) v = xlift2 [] (op_data g v).
Print Assumptions Bridge_data.

Theorem Bridge_kids :
  forall g v, x_kids (mkX g []) v = op_kids g v.
Proof. exact x_kids_nohole. Qed.

Check Bridge_kids :
  forall g v, x_kids (mkX g []) v = op_kids g v.
Print Assumptions Bridge_kids.

Theorem Bridge_kid :
  forall g v a, x_kid (mkX g []) v a = op_kid g v a.
Proof. exact x_kid_nohole. Qed.

Check Bridge_kid :
  forall g v a, x_kid (mkX g []) v a = op_kid g v a.
Print Assumptions Bridge_kid.

Theorem Bridge_keys :
  forall g, x_keys (mkX g []) = op_keys g.
Proof. exact x_keys_nohole. Qed.

Check Bridge_keys :
  forall g, x_keys (mkX g []) = op_keys g.
Print Assumptions Bridge_keys.

Theorem Bridge_len :
  forall g, x_len (mkX g []) = op_len g.
Proof. exact x_len_nohole. Qed.

Check Bridge_len :
  forall g, x_len (mkX g []) = op_len g.
Print Assumptions Bridge_len.

Theorem Bridge_next_id :
  forall g, x_next_id (mkX g []) = xlift2 [] (op_next_id g).
Proof. exact x_next_id_nohole. Qed.

Check Bridge_next_id :
  forall g, x_next_id (mkX g []) = xlift2 [] (op_next_id g).
Print Assumptions Bridge_next_id.

Theorem Bridge_clone :
  forall g, x_clone (mkX g []) = mkX (op_clone g) [].
Proof. exact x_clone_nohole. Qed.

Check Bridge_clone :
  forall g, x_clone (mkX g []) = mkX (op_clone g) [].
Print Assumptions Bridge_clone.

Theorem Bridge_slice_some :
  forall n order g v p, x_slice_some n order (mkX g []) v p = xlift [] (op_slice_some n order g v p).
Proof. exact x_slice_some_nohole. Qed.

Check Bridge_slice_some :
  forall n order g v p, x_slice_some n order (mkX g []) v p = xlift [] (op_slice_some n order g v p).
Print Assumptions Bridge_slice_some.

Theorem Bridge_slice :
  forall n order g v, x_slice n order (mkX g []) v = xlift [] (op_slice n order g v).
Proof. exact x_slice_nohole. Qed.

Check Bridge_slice :
  forall n order g v, x_slice n order (mkX g []) v = xlift [] (op_slice n order g v).
Print Assumptions Bridge_slice.

Theorem Bridge_slice_no_holes :
  forall n order x v p x', x_slice_some n order x v p = Ok x' -> xh x' = [].
Proof. exact x_slice_some_no_holes. Qed.

Check Bridge_slice_no_holes :
  forall n order x v p x', x_slice_some n order x v p = Ok x' -> xh x' = [].
Print Assumptions Bridge_slice_no_holes.

Theorem Bridge_debug :
  forall g, x_debug (mkX g []) = op_debug g.
Proof. exact x_debug_nohole. Qed.

Check Bridge_debug :
  forall g, x_debug (mkX g []) = op_debug g.
Print Assumptions Bridge_debug.

Theorem Bridge_to_xml :
  forall g, x_to_xml (mkX g []) = op_to_xml g.
Proof. exact x_to_xml_nohole. Qed.

Check Bridge_to_xml :
  forall g, x_to_xml (mkX g []) = op_to_xml g.
Print Assumptions Bridge_to_xml.

Theorem Bridge_to_dot :
  forall g, x_to_dot (mkX g []) = op_to_dot g.
Proof. exact x_to_dot_nohole. Qed.

Check Bridge_to_dot :
  forall g, x_to_dot (mkX g []) = op_to_dot g.
Print Assumptions Bridge_to_dot.

Theorem Bridge_vprint :
  forall g v, x_vprint (mkX g []) v = (t <- op_vprint g v ;; Ok (Some t)).
Proof. exact x_vprint_nohole. Qed.

Check Bridge_vprint :
  forall g v, x_vprint (mkX g []) v = (t <- op_vprint g v ;; Ok (Some t)).
Print Assumptions Bridge_vprint.

Theorem Bridge_inspect :
  forall g v, x_inspect (mkX g []) v = (t <- op_inspect g v ;; Ok (Some t)).
Proof. exact x_inspect_nohole. Qed.

Check Bridge_inspect :
  forall g v, x_inspect (mkX g []) v = (t <- op_inspect g v ;; Ok (Some t)).
Print Assumptions Bridge_inspect.

Theorem Bridge_encode :
  forall g, x_encode (mkX g []) = encode g.
Proof. exact x_encode_nohole. Qed.

Check Bridge_encode :
  forall g, x_encode (mkX g []) = encode g.
Print Assumptions Bridge_encode.

Theorem Bridge_deploy :
  forall n g script, x_deploy n (mkX g []) script = xlift2 [] (op_deploy n g script).
Proof. exact x_deploy_nohole. Qed.

Check Bridge_deploy :
  forall n g script, x_deploy n (mkX g []) script = xlift2 [] (op_deploy n g script).
Print Assumptions Bridge_deploy.

Theorem Bridge_merge_ok :
  forall n s h left right s' v,
  op_merge n s h left right = Ok (s', v) ->
  x_merge n (mkX s []) (mkX h []) left right = Ok (mkX s' [], v).
Proof. exact x_merge_nohole. Qed.

Check Bridge_merge_ok :
  forall n s h left right s' v,
  op_merge n s h left right = Ok (s', v) ->
  x_merge n (mkX s []) (mkX h []) left right = Ok (mkX s' [], v).
Print Assumptions Bridge_merge_ok.

Theorem Bridge_merge_panic :
  forall n s h left right k,
  op_merge n s h left right = Panic k ->
  x_merge n (mkX s []) (mkX h []) left right = Panic k.
Proof. exact x_merge_nohole_panic. Qed.

Check Bridge_merge_panic :
  forall n s h left right k,
  op_merge n s h left right = Panic k ->
  x_merge n (mkX s []) (mkX h []) left right = Panic k.
Print Assumptions Bridge_merge_panic.

Theorem Bridge_merge_total :
  forall n s h left right,
  op_merge n s h left right <> Unmodelled ->
  x_merge n (mkX s []) (mkX h []) left right = xlift2 [] (op_merge n s h left right).
Proof. exact x_merge_nohole_total. Qed.

Check Bridge_merge_total :
  forall n s h left right,
  op_merge n s h left right <> Unmodelled ->
  x_merge n (mkX s []) (mkX h []) left right = xlift2 [] (op_merge n s h left right).
Print Assumptions Bridge_merge_total.

Theorem Bridge_def_xwf :
  forall x, xwf x <->
  (forall v, mem v (xh x) = true -> v < cap_of (xg x) /\ vtx (xg x) v = blank).
Proof. exact (fun x => conj (fun H => H) (fun H => H)). Qed.

Check Bridge_def_xwf :
  forall x, xwf x <->
  (forall v, mem v (xh x) = true -> v < cap_of (xg x) /\ vtx (xg x) v = blank).
Print Assumptions Bridge_def_xwf.

Theorem Bridge_xwf_nohole :
  forall g, xwf (mkX g []).
Proof. exact xwf_nohole. Qed.

Check Bridge_xwf_nohole :
  forall g, xwf (mkX g []).
Print Assumptions Bridge_xwf_nohole.

Theorem Bridge_hole_not_key :
  forall x v, xwf x -> mem v (xh x) = true -> ~ In v (x_keys x).
Proof. exact xwf_hole_not_key. Qed.

Check Bridge_hole_not_key :
  forall x v, xwf x -> mem v (xh x) = true -> ~ In v (x_keys x).
Print Assumptions Bridge_hole_not_key.

Theorem Bridge_merge_wf :
  forall n s g left right s' r, xwf s -> x_merge n s g left right = Ok (s', r) -> xwf s'.
Proof. exact x_merge_wf. Qed.

Check Bridge_merge_wf :
  forall n s g left right s' r, xwf s -> x_merge n s g left right = Ok (s', r) -> xwf s'.
Print Assumptions Bridge_merge_wf.

Theorem Bridge_join_holes :
  forall n x left right x',
  x_join n x left right = Ok x' -> xpres x x' /\ xh x' = right :: xh x.
Proof. exact x_join_pres. Qed.

Check Bridge_join_holes :
  forall n x left right x',
  x_join n x left right = Ok x' -> xpres x x' /\ xh x' = right :: xh x.
Print Assumptions Bridge_join_holes.

