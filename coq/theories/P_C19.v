(** * C19  Behaviour is deterministic and independent of N and capacity   (PARTIAL)

    "Replaying a call sequence yields identical results, including the
    enumeration order of kids() and the ids chosen by next_id() and merge().
    Two graphs created with different edge capacities N and vertex capacities
    give identical answers for every sequence that fits within the limits of
    both."

    The reference model never consults N or the capacity (they occur only in
    the limits predicate), and the model of the code refines it under every
    configuration (C02), so two configurations give the same answers:
    [C19_config_independent]; a sequence that fits the smaller configuration
    fits every larger one: [C19_limits_monotone], [C19_config_larger].  The
    answers include kids() (edge order) and next_id().  The model is a
    function, so replaying is deterministic by construction
    ([C19_replay_deterministic]); the only nondeterministic ingredient of the
    real code, hash-set iteration order in slice(), is a parameter of the model
    and the result does not depend on it up to the order of a list that is
    only used as a set ([C19_slice_order_irrelevant]).  Run-to-run determinism
    of the real process (hash seeds, allocator) is a runtime fact that is
    observed by the correspondence check (each history replayed in several
    processes and configurations), not proved: this property is labelled
    partial in DESIGN.md section 12. *)

From Sodg Require Import Limits SliceFacts.

Theorem C19_config_independent :
  forall n1 cap1 n2 cap2 os,
  within_limits n1 cap1 sinit os -> within_limits n2 cap2 sinit os ->
  exists g1 g2 rs,
    run n1 (op_empty cap1) os = Ok (g1, rs) /\ run n2 (op_empty cap2) os = Ok (g2, rs)
    /\ op_keys g1 = op_keys g2
    /\ (forall v, present g1 v = true ->
          edg g1 v = edg g2 v /\ prs g1 v = prs g2 v /\ (prs g1 v <> PEmpty -> dat g1 v = dat g2 v)).
Proof. exact config_independent. Qed.

Check C19_config_independent :
  forall n1 cap1 n2 cap2 os,
  within_limits n1 cap1 sinit os -> within_limits n2 cap2 sinit os ->
  exists g1 g2 rs,
    run n1 (op_empty cap1) os = Ok (g1, rs) /\ run n2 (op_empty cap2) os = Ok (g2, rs)
    /\ op_keys g1 = op_keys g2
    /\ (forall v, present g1 v = true ->
          edg g1 v = edg g2 v /\ prs g1 v = prs g2 v /\ (prs g1 v <> PEmpty -> dat g1 v = dat g2 v)).
Print Assumptions C19_config_independent.

Theorem C19_limits_monotone :
  forall n1 n2 cap1 cap2, n1 <= n2 -> cap1 <= cap2 ->
  forall os s, within_limits n1 cap1 s os -> within_limits n2 cap2 s os.
Proof. exact within_limits_mono. Qed.

Check C19_limits_monotone :
  forall n1 n2 cap1 cap2, n1 <= n2 -> cap1 <= cap2 ->
  forall os s, within_limits n1 cap1 s os -> within_limits n2 cap2 s os.
Print Assumptions C19_limits_monotone.

Theorem C19_config_larger :
  forall n1 cap1 n2 cap2 os,
  n1 <= n2 -> cap1 <= cap2 -> within_limits n1 cap1 sinit os ->
  exists g1 g2 rs,
    run n1 (op_empty cap1) os = Ok (g1, rs) /\ run n2 (op_empty cap2) os = Ok (g2, rs)
    /\ op_keys g1 = op_keys g2.
Proof. exact config_larger. Qed.

Check C19_config_larger :
  forall n1 cap1 n2 cap2 os,
  n1 <= n2 -> cap1 <= cap2 -> within_limits n1 cap1 sinit os ->
  exists g1 g2 rs,
    run n1 (op_empty cap1) os = Ok (g1, rs) /\ run n2 (op_empty cap2) os = Ok (g2, rs)
    /\ op_keys g1 = op_keys g2.
Print Assumptions C19_config_larger.

Theorem C19_replay_deterministic :
  forall n g os r1 r2,
  run n g os = r1 -> run n g os = r2 -> r1 = r2.
Proof. exact replay_deterministic. Qed.

Check C19_replay_deterministic :
  forall n g os r1 r2,
  run n g os = r1 -> run n g os = r2 -> r1 = r2.
Print Assumptions C19_replay_deterministic.

Theorem C19_slice_order_irrelevant :
  forall order1 order2 p g v d1 d2,
  (forall l, Permutation (order1 l) l) -> (forall l, Permutation (order2 l) l) ->
  pclosed p g v ->
  closure (cap_of g + 2) order1 p g [] [v] = Ok d1 ->
  closure (cap_of g + 2) order2 p g [] [v] = Ok d2 ->
  Permutation d1 d2.
Proof. exact closure_order_irrelevant. Qed.

Check C19_slice_order_irrelevant :
  forall order1 order2 p g v d1 d2,
  (forall l, Permutation (order1 l) l) -> (forall l, Permutation (order2 l) l) ->
  pclosed p g v ->
  closure (cap_of g + 2) order1 p g [] [v] = Ok d1 ->
  closure (cap_of g + 2) order2 p g [] [v] = Ok d2 ->
  Permutation d1 d2.
Print Assumptions C19_slice_order_irrelevant.


(** non-vacuity: one history, two configurations *)
Example C19_example :
  let os := [OAdd 0; OAdd 1; OBind 0 1 (Alpha 0); ONext; OPut 1 (HVector [1%N]); OKids 0; OData 1; OKeys] in
  run 1 (op_empty 3) os = Ok (fst (match run 1 (op_empty 3) os with Ok x => x | _ => (op_empty 0, []) end),
                              snd (match run 16 (op_empty 200) os with Ok x => x | _ => (op_empty 0, []) end)).
Proof. vm_compute. reflexivity. Qed.


