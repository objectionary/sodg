(** * P_C18: property C18 of the sodg verification.

    "to_xml() and to_dot() contain one node per present vertex and none for
    absent ids, one edge entry per edge with its label and target, and the
    data bytes of every vertex that has data.  Vertices appear in ascending
    id order, and two graphs with the same present vertices, edges and data
    produce the same text however they were built."

    [op_to_xml g = render_xml (export_doc g)] and
    [op_to_dot g = render_dot (export_doc g)] (Export.v): the theorems about
    nodes, edge entries and data are about the document [export_doc g]; the
    canonical-form theorem [C18_canonical] is about the two texts.

    - nodes: [C18_nodes], [C18_keys_spec], [C18_keys_sorted], [C18_keys_nodup],
      [C18_absent_not_printed], [C18_out_of_range_not_printed],
      [C18_node_of_vertex];
    - edge entries and data of a node: [C18_node_content],
      [C18_edge_entries], [C18_edge_count];
    - the order used for the edge entries is a total order on labels:
      [C18_label_compare_*], [C18_label_leb_order];
    - canonical form: [C18_def_same_content], [C18_canonical],
      [C18_canonical_doc], [C18_doc_determines_content].

    The hypothesis of [C18_canonical] that the labels of a vertex are
    pairwise distinct is an invariant of the edge map ([micromap] overwrites
    the value of an existing key); [C18_canonical_invariant_states] at the
    end is the theorem for the states that have it (Wf.v).

    The proofs are in ExportFacts.v and, for the label order, LabelFacts.v. *)

From Sodg Require Import Export LabelFacts ExportFacts Wf.
From Coq Require Import Permutation Sorted.

(** ** one node per present vertex, none for absent ids, ascending *)

Theorem C18_nodes :
  forall g, map x_id (export_doc g) = op_keys g.
Proof. exact export_ids. Qed.

Check C18_nodes :
  forall g, map x_id (export_doc g) = op_keys g.
Print Assumptions C18_nodes.

Theorem C18_keys_spec :
  forall g v, In v (op_keys g) <-> v < cap_of g /\ tag g v <> 0.
Proof. exact Facts.in_op_keys. Qed.

Check C18_keys_spec :
  forall g v, In v (op_keys g) <-> v < cap_of g /\ tag g v <> 0.
Print Assumptions C18_keys_spec.

Theorem C18_keys_sorted :
  forall g, StronglySorted lt (op_keys g).
Proof. exact Facts.keys_sorted. Qed.

Check C18_keys_sorted :
  forall g, StronglySorted lt (op_keys g).
Print Assumptions C18_keys_sorted.

Theorem C18_keys_nodup :
  forall g, NoDup (op_keys g).
Proof. exact Facts.op_keys_nodup. Qed.

Check C18_keys_nodup :
  forall g, NoDup (op_keys g).
Print Assumptions C18_keys_nodup.

Theorem C18_absent_not_printed :
  forall g v, tag g v = 0 -> ~ In v (map x_id (export_doc g)).
Proof. exact export_absent. Qed.

Check C18_absent_not_printed :
  forall g v, tag g v = 0 -> ~ In v (map x_id (export_doc g)).
Print Assumptions C18_absent_not_printed.

Theorem C18_out_of_range_not_printed :
  forall g v, cap_of g <= v -> ~ In v (map x_id (export_doc g)).
Proof. exact export_out_of_range. Qed.

Check C18_out_of_range_not_printed :
  forall g v, cap_of g <= v -> ~ In v (map x_id (export_doc g)).
Print Assumptions C18_out_of_range_not_printed.

Theorem C18_node_of_vertex :
  forall g v,
    In v (op_keys g) ->
    In (mkX v (sort_edges (edg g v)) (if has_data g v then Some (dat g v) else None))
       (export_doc g).
Proof. exact export_node_of_key. Qed.

Check C18_node_of_vertex :
  forall g v,
    In v (op_keys g) ->
    In (mkX v (sort_edges (edg g v)) (if has_data g v then Some (dat g v) else None))
       (export_doc g).
Print Assumptions C18_node_of_vertex.

(** ** one edge entry per edge, in label order; data iff the vertex has data *)

Theorem C18_node_content :
  forall g x,
    In x (export_doc g) ->
    Permutation (x_edges x) (edg g (x_id x)) /\
    StronglySorted (fun a b => label_leb (fst a) (fst b) = true) (x_edges x) /\
    x_data x = (if has_data g (x_id x) then Some (dat g (x_id x)) else None).
Proof. exact export_node_content. Qed.

Check C18_node_content :
  forall g x,
    In x (export_doc g) ->
    Permutation (x_edges x) (edg g (x_id x)) /\
    StronglySorted (fun a b => label_leb (fst a) (fst b) = true) (x_edges x) /\
    x_data x = (if has_data g (x_id x) then Some (dat g (x_id x)) else None).
Print Assumptions C18_node_content.

Theorem C18_edge_entries :
  forall g x a w,
    In x (export_doc g) ->
    (In (a, w) (x_edges x) <-> In (a, w) (edg g (x_id x))).
Proof. exact export_edge_entries. Qed.

Check C18_edge_entries :
  forall g x a w,
    In x (export_doc g) ->
    (In (a, w) (x_edges x) <-> In (a, w) (edg g (x_id x))).
Print Assumptions C18_edge_entries.

Theorem C18_edge_count :
  forall g x,
    In x (export_doc g) -> length (x_edges x) = length (edg g (x_id x)).
Proof. exact export_edge_count. Qed.

Check C18_edge_count :
  forall g x,
    In x (export_doc g) -> length (x_edges x) = length (edg g (x_id x)).
Print Assumptions C18_edge_count.

(** ** the label order is a total order *)

Theorem C18_label_compare_eq :
  forall a b, label_compare a b = Eq <-> a = b.
Proof. exact label_compare_eq_iff. Qed.

Check C18_label_compare_eq :
  forall a b, label_compare a b = Eq <-> a = b.
Print Assumptions C18_label_compare_eq.

Theorem C18_label_compare_antisym :
  forall a b, label_compare a b = CompOpp (label_compare b a).
Proof. exact label_compare_antisym. Qed.

Check C18_label_compare_antisym :
  forall a b, label_compare a b = CompOpp (label_compare b a).
Print Assumptions C18_label_compare_antisym.

Theorem C18_label_compare_trans :
  forall c a b d,
    label_compare a b = c -> label_compare b d = c -> label_compare a d = c.
Proof. exact label_compare_trans. Qed.

Check C18_label_compare_trans :
  forall c a b d,
    label_compare a b = c -> label_compare b d = c -> label_compare a d = c.
Print Assumptions C18_label_compare_trans.

Theorem C18_label_leb_order :
  (forall a, label_leb a a = true) /\
  (forall a b, label_leb a b = false -> label_leb b a = true) /\
  (forall a b c, label_leb a b = true -> label_leb b c = true -> label_leb a c = true) /\
  (forall a b, label_leb a b = true -> label_leb b a = true -> a = b).
Proof.
  exact (conj label_leb_refl (conj label_leb_total (conj label_leb_trans label_leb_antisym))).
Qed.

Check C18_label_leb_order :
  (forall a, label_leb a a = true) /\
  (forall a b, label_leb a b = false -> label_leb b a = true) /\
  (forall a b c, label_leb a b = true -> label_leb b c = true -> label_leb a c = true) /\
  (forall a b, label_leb a b = true -> label_leb b a = true -> a = b).
Print Assumptions C18_label_leb_order.

(** ** canonical form *)

Theorem C18_def_same_content :
  forall g1 g2,
    same_content g1 g2 <->
    op_keys g1 = op_keys g2 /\
    forall v, In v (op_keys g1) ->
      Permutation (edg g1 v) (edg g2 v) /\
      has_data g1 v = has_data g2 v /\
      (has_data g1 v = true -> bytes (dat g1 v) = bytes (dat g2 v)).
Proof. intros g1 g2. reflexivity. Qed.

Check C18_def_same_content :
  forall g1 g2,
    same_content g1 g2 <->
    op_keys g1 = op_keys g2 /\
    forall v, In v (op_keys g1) ->
      Permutation (edg g1 v) (edg g2 v) /\
      has_data g1 v = has_data g2 v /\
      (has_data g1 v = true -> bytes (dat g1 v) = bytes (dat g2 v)).
Print Assumptions C18_def_same_content.

Theorem C18_canonical :
  forall g1 g2,
    (forall v, In v (op_keys g1) -> NoDup (map fst (edg g1 v))) ->
    same_content g1 g2 ->
    op_to_xml g1 = op_to_xml g2 /\ op_to_dot g1 = op_to_dot g2.
Proof. exact export_canonical. Qed.

Check C18_canonical :
  forall g1 g2,
    (forall v, In v (op_keys g1) -> NoDup (map fst (edg g1 v))) ->
    same_content g1 g2 ->
    op_to_xml g1 = op_to_xml g2 /\ op_to_dot g1 = op_to_dot g2.
Print Assumptions C18_canonical.

(** the documents themselves agree, the data taken as bytes *)
Theorem C18_canonical_doc :
  forall g1 g2,
    (forall v, In v (op_keys g1) -> NoDup (map fst (edg g1 v))) ->
    same_content g1 g2 ->
    map (fun x => (x_id x, x_edges x, option_map bytes (x_data x))) (export_doc g1) =
    map (fun x => (x_id x, x_edges x, option_map bytes (x_data x))) (export_doc g2).
Proof. exact export_canonical_doc. Qed.

Check C18_canonical_doc :
  forall g1 g2,
    (forall v, In v (op_keys g1) -> NoDup (map fst (edg g1 v))) ->
    same_content g1 g2 ->
    map (fun x => (x_id x, x_edges x, option_map bytes (x_data x))) (export_doc g1) =
    map (fun x => (x_id x, x_edges x, option_map bytes (x_data x))) (export_doc g2).
Print Assumptions C18_canonical_doc.

(** and nothing but the content enters the document *)
Theorem C18_doc_determines_content :
  forall g1 g2,
    map (fun x => (x_id x, x_edges x, option_map bytes (x_data x))) (export_doc g1) =
    map (fun x => (x_id x, x_edges x, option_map bytes (x_data x))) (export_doc g2) ->
    same_content g1 g2.
Proof. exact export_doc_determines_content. Qed.

Check C18_doc_determines_content :
  forall g1 g2,
    map (fun x => (x_id x, x_edges x, option_map bytes (x_data x))) (export_doc g1) =
    map (fun x => (x_id x, x_edges x, option_map bytes (x_data x))) (export_doc g2) ->
    same_content g1 g2.
Print Assumptions C18_doc_determines_content.

(** ** the hypotheses are satisfiable *)

(** [ex_a] and [ex_b] (ExportFacts.v) are built by [op_add]/[op_bind]/[op_put]
    with different capacities, the vertices added and the edges of vertex 0
    bound in different orders, and the data of vertex 0 in different
    representations *)
Example ex_built_differently :
  cap_of ex_a = 4 /\ cap_of ex_b = 6 /\
  edg ex_a 0 = [(Alpha 1, 1); (Greek 961, 2)] /\
  edg ex_b 0 = [(Greek 961, 2); (Alpha 1, 1)] /\
  dat ex_a 0 = HVector [202; 254]%N /\
  dat ex_b 0 = HBytes [202; 254; 7; 7; 7; 7; 7; 7]%N 2 /\
  ex_a <> ex_b.
Proof.
  repeat split.
  intros H. apply (f_equal cap_of) in H. vm_compute in H. discriminate H.
Qed.

Example ex_same_content : same_content ex_a ex_b.
Proof. apply C18_doc_determines_content. vm_compute. reflexivity. Qed.

Example ex_labels_distinct :
  forall v, In v (op_keys ex_a) -> NoDup (map fst (edg ex_a v)).
Proof.
  apply Forall_forall, (Forall_map (edg ex_a) (fun e => NoDup (map fst e))).
  vm_compute. repeat constructor; simpl; intuition discriminate.
Qed.

Example ex_same_text :
  op_to_xml ex_a = op_to_xml ex_b /\ op_to_dot ex_a = op_to_dot ex_b.
Proof. split; reflexivity. Qed.

(** the same through the theorem *)
Example ex_same_text_by_theorem :
  op_to_xml ex_a = op_to_xml ex_b /\ op_to_dot ex_a = op_to_dot ex_b.
Proof. exact (C18_canonical ex_a ex_b ex_labels_distinct ex_same_content). Qed.

(** the document of [ex_a]: ids ascending, edges of 0 in label order (Greek
    before Alpha), data of 0 *)
Example ex_doc :
  export_doc ex_a =
  [ mkX 0 [(Greek 961, 2); (Alpha 1, 1)] (Some (HVector [202; 254]%N));
    mkX 1 [] None;
    mkX 2 [(lbl_foo, 1)] None ].
Proof. reflexivity. Qed.

(** [ex_stale]: vertices 0 and 1 were destroyed by [op_data]; their slots
    still hold an edge and data, and neither is printed *)
Example ex_stale_slots :
  tag ex_stale 0 = 0 /\ tag ex_stale 1 = 0 /\ tag ex_stale 2 <> 0 /\
  edg ex_stale 0 = [(Alpha 0, 1)] /\
  has_data ex_stale 1 = true /\ dat ex_stale 1 = HVector [222; 173]%N.
Proof. repeat split. vm_compute. discriminate. Qed.

Example ex_stale_not_printed :
  op_keys ex_stale = [2] /\
  export_doc ex_stale = [mkX 2 [] None] /\
  op_to_xml ex_stale = op_to_xml ex_fresh /\
  op_to_dot ex_stale = op_to_dot ex_fresh.
Proof. repeat split. Qed.

(** a node with edges and data for [C18_node_content] *)
Example ex_node_content :
  In (mkX 0 [(Greek 961, 2); (Alpha 1, 1)] (Some (HVector [202; 254]%N))) (export_doc ex_a).
Proof. rewrite ex_doc. left. reflexivity. Qed.

(** ** the hypothesis on distinct labels holds in every invariant state *)

Theorem C18_canonical_invariant_states :
  forall n g1 g2,
  Inv n g1 -> same_content g1 g2 -> op_to_xml g1 = op_to_xml g2 /\ op_to_dot g1 = op_to_dot g2.
Proof. exact invariant_export_canonical. Qed.

Check C18_canonical_invariant_states :
  forall n g1 g2,
  Inv n g1 -> same_content g1 g2 -> op_to_xml g1 = op_to_xml g2 /\ op_to_dot g1 = op_to_dot g2.
Print Assumptions C18_canonical_invariant_states.
