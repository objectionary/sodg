(** * SliceFacts2: the rebuild loop of [slice_some] never panics, keeps the
    representation invariant and builds the sub-graph induced by the kept
    vertices, for any list of at most 16 kept slots; with the closure loop of
    SliceFacts.v this is property C13.

    [slice_some_spec] is the general statement: it asks of the source only
    duplicate-free, bounded edge lists at the reachable vertices, and describes
    the result by [slice_of].  What C13 says of the edges and data is read off
    [slice_of] ([slice_of_edges] and the lemmas after it); [slice_spec] is the
    instance for [slice], where every edge is accepted; the statements over
    [Inv n g] (here, and [slice_some_reachable] for the states the interface
    reaches) and over [src_edges_ok n g] (SliceWeak.v) instantiate the
    hypothesis on the edge lists. *)

From Sodg Require Export SliceFacts Inv.
From Sodg Require Import SpecDec History.

(** every group slot is empty or has at least two members (groups are created
    with two members and only grow); not part of [Inv], needed for counting
    the free slots *)
Definition grp2 (g : sodg) : Prop :=
  forall b, 2 <= b -> b < 16 -> members g b = [] \/ 2 <= length (members g b).

Lemma grp2_bind g g' v e : bind_frame g g' v e -> grp2 g -> grp2 g'.
Proof.
  intros F G b H1 H2. destruct (bf_members _ _ _ _ F b) as [->|L]; [apply G; assumption|right; exact L].
Qed.

(** [rebuild] copies the edges whose target is kept *)
Definition keep (done : list nat) (es : edges) : edges :=
  filter (fun e : label * nat => mem (snd e) done) es.

Lemma keep_app done l1 l2 : keep done (l1 ++ l2) = keep done l1 ++ keep done l2.
Proof. apply filter_app. Qed.

Lemma keep_snoc done l k v :
  keep done (l ++ [(k, v)]) = if mem v done then keep done l ++ [(k, v)] else keep done l.
Proof.
  rewrite keep_app. unfold keep at 2. cbn [filter snd].
  destruct (mem v done); [reflexivity | apply app_nil_r].
Qed.

Lemma keep_keys done es k : In k (map fst (keep done es)) -> In k (map fst es).
Proof. apply incl_map, incl_filter. Qed.

Lemma keep_length done es : length (keep done es) <= length es.
Proof.
  unfold keep. induction es as [|e t IH]; cbn [filter length]; [lia|].
  destruct (mem (snd e) done); cbn [length]; lia.
Qed.

Section Rebuild.
  Variable n : nat.
  Variable g : sodg.
  Variable done : list nat.
  (** all that is needed of the source: what the field [i_edges] of [Inv] says,
      and only of the kept vertices *)
  Hypothesis Hg : forall v, In v done -> NoDup (map fst (edg g v)) /\ length (edg g v) <= n.
  Hypothesis Hlen : length done <= 16.
  Hypothesis Hlt : forall x, In x done -> x < cap_of g.
  (** no kept vertex has an edge to itself: [bind] requires distinct ends *)
  Hypothesis Hnoself : forall u a, In u done -> ~ In (a, u) (edg g u).

  (** the invariant of both loops *)
  Record rb (ng : sodg) : Prop := {
    rb_inv : Inv n ng;
    rb_grp2 : grp2 ng;
    rb_cap : cap_of ng = cap_of g;
    rb_prs : forall w, prs ng w = PEmpty;
    rb_pres : forall w, tag ng w <> 0 -> In w done;
    rb_abs : forall w, tag ng w = 0 -> edg ng w = []
  }.

  Lemma rb_empty : rb (op_empty (cap_of g)).
  Proof.
    split.
    - apply inv_empty.
    - intros b H1 _. left. rewrite members_empty, (proj2 (Nat.ltb_ge b 2) H1). reflexivity.
    - apply cap_empty.
    - apply prs_empty.
    - intros w H. rewrite tag_empty in H. congruence.
    - intros w _. apply edg_empty.
  Qed.

  Lemma add_rb ng x :
    rb ng -> In x done ->
    exists ng1, op_add ng x = Ok ng1 /\ rb ng1
      /\ (forall w, edg ng1 w = edg ng w)
      /\ (forall w, tag ng1 w <> 0 <-> w = x \/ tag ng w <> 0).
  Proof.
    intros [RI RG RC RP RS RA] Hx.
    assert (Hxc : x < cap_of ng) by (rewrite RC; apply Hlt; exact Hx).
    destruct (add_sum n ng x RI Hxc) as (ng1 & A & I' & T & P & D & E & M & S & X).
    exists ng1. split; [exact A|].
    assert (Ee : forall w, edg ng1 w = edg ng w).
    { intros w. rewrite E. destruct (Nat.eqb_spec w x) as [->|]; cbn [andb]; auto.
      destruct (Nat.eqb_spec (tag ng x) 0) as [Z|]; auto. symmetry. apply RA. exact Z. }
    assert (Tt : forall w, tag ng1 w <> 0 <-> w = x \/ tag ng w <> 0).
    { intros w. rewrite T.
      destruct (Nat.eqb_spec w x) as [->|]; destruct (Nat.eqb_spec (tag ng x) 0); cbn [andb];
        intuition congruence. }
    split; [|split; assumption]. split.
    - exact I'.
    - intros b H1 H2. rewrite M. apply RG; assumption.
    - rewrite (se_cap _ _ X). exact RC.
    - intros w. rewrite P. destruct ((w =? x) && (tag ng x =? 0)); [reflexivity|apply RP].
    - intros w Hw. apply Tt in Hw as [->|Hw]; auto.
    - intros w Hw. rewrite Ee. apply RA. destruct (Nat.eq_dec (tag ng w) 0) as [Z|NZ]; [exact Z|].
      destruct (proj2 (Tt w) (or_intror NZ) Hw).
  Qed.

  (** an edge between two distinct present vertices: at most 16 vertices are
      ever present, so the group tables have room and [bind] cannot panic *)
  Lemma bind_rb ng v1 v2 k :
    rb ng -> tag ng v1 <> 0 -> tag ng v2 <> 0 -> v1 <> v2 -> length (edg ng v1) < n ->
    exists ng', op_bind n ng v1 v2 k = Ok ng' /\ rb ng'
      /\ (forall w, tag ng' w = 0 <-> tag ng w = 0)
      /\ (forall w, edg ng' w = if w =? v1 then spec_insert (edg ng v1) k v2 else edg ng w).
  Proof.
    intros [RI RG RC RP RS RA] T1 T2 Hne Hroom.
    assert (Hc : cpre n ng (OBind v1 v2 k)).
    { apply (bind_cpre n ng done 2 v1 v2 k RI RS RG); auto; try lia. right; exact Hroom. }
    destruct (bind_sum n ng v1 v2 k RI Hc) as (ng' & A & I' & F).
    pose proof (bf_tag _ _ _ _ F) as Z'. pose proof (bf_prs _ _ _ _ F) as P'.
    pose proof (bf_edg _ _ _ _ F) as E'.
    exists ng'. split; [exact A|]. split; [|split; [exact Z' | exact E']]. split.
    - exact I'.
    - apply (grp2_bind _ _ _ _ F), RG.
    - rewrite (se_cap _ _ (bf_sev _ _ _ _ F)). exact RC.
    - intros w. rewrite P'. apply RP.
    - intros w Hw. apply RS. rewrite <- Z'. exact Hw.
    - intros w Hw. apply Z' in Hw. rewrite E'.
      destruct (Nat.eqb_spec w v1) as [->|]; [contradiction | apply RA; exact Hw].
  Qed.

  (** the loop over the edges of [v1]; [pre] are the edges already handled *)
  Lemma rebuild_edges_ok v1 : In v1 done ->
    forall es pre ng,
      edg g v1 = pre ++ es ->
      rb ng -> tag ng v1 <> 0 -> edg ng v1 = keep done pre ->
      exists ng', rebuild_edges n ng done v1 es = Ok ng' /\ rb ng'
        /\ (forall w, tag ng w <> 0 -> tag ng' w <> 0)
        /\ (forall w, w <> v1 -> edg ng' w = edg ng w)
        /\ edg ng' v1 = keep done (edg g v1).
  Proof.
    intros Hv1. induction es as [|[k v2] rest IH]; intros pre ng Hsplit R T1 E1.
    - exists ng. rewrite app_nil_r in Hsplit. subst pre. cbn [rebuild_edges]. auto.
    - cbn [rebuild_edges].
      assert (Hsplit' : edg g v1 = (pre ++ [(k, v2)]) ++ rest) by (rewrite <- app_assoc; exact Hsplit).
      pose proof (keep_snoc done pre k v2) as Ks.
      destruct (mem v2 done) eqn:M2; [|apply (IH _ ng Hsplit' R T1); congruence].
      apply mem_In in M2.
      destruct (add_rb ng v2 R M2) as (ng1 & A1 & R1 & Ee1 & Tt1). rewrite A1. cbn [obind].
      assert (T1' : tag ng1 v1 <> 0) by (apply Tt1; auto).
      destruct (Hg v1 Hv1) as [Nd Ln]. rewrite Hsplit in Nd, Ln.
      destruct (bind_rb ng1 v1 v2 k R1 T1') as (ng2 & A2 & R2 & Z2 & E2).
      { apply Tt1. auto. }
      { intros ->. apply (Hnoself v2 k M2). rewrite Hsplit. apply in_elt. }
      { rewrite Ee1, E1. pose proof (keep_length done pre). rewrite app_length in Ln. cbn [length] in Ln. lia. }
      rewrite A2. cbn [obind].
      destruct (IH _ ng2 Hsplit' R2) as (ng' & A' & R' & Tm' & Fr' & Ev').
      { rewrite Z2. exact T1'. }
      { rewrite E2, Nat.eqb_refl, Ee1, E1, Ks. unfold spec_insert.
        rewrite mm_replace_fresh; [reflexivity|]. intros H. apply keep_keys in H.
        rewrite map_app in Nd. apply NoDup_remove_2 in Nd. apply Nd, in_or_app. left; exact H. }
      exists ng'. split; [exact A'|]. split; [exact R'|]. split; [|split; [|exact Ev']].
      + intros w Hw. apply Tm'. rewrite Z2. apply Tt1. auto.
      + intros w Hw. rewrite (Fr' w Hw), E2. apply Nat.eqb_neq in Hw. rewrite Hw. apply Ee1.
  Qed.

  (** the edges slot [w] is to have once the vertices selected by [pb] are done *)
  Definition expect (pb : bool) (w : nat) : edges :=
    if mem w done && pb then keep done (edg g w) else [].

  Lemma rebuild_ok : forall vs procd ng,
    NoDup vs -> (forall x, In x vs -> ~ In x procd) ->
    rb ng ->
    (forall w, In w done -> In w procd -> tag ng w <> 0) ->
    (forall w, edg ng w = expect (mem w procd) w) ->
    exists ng', rebuild n g ng done vs = Ok ng' /\ rb ng'
      /\ (forall w, In w done -> In w vs \/ In w procd -> tag ng' w <> 0)
      /\ (forall w, edg ng' w = expect (mem w vs || mem w procd) w).
  Proof.
    induction vs as [|v1 rest IH]; intros procd ng Hvs Hfresh R Tp Ep.
    { exists ng. split; [reflexivity|]. split; [exact R|]. split; [|exact Ep].
      intros w Hd [[]|Hp]. auto. }
    inversion Hvs as [|? ? Hv1 Hrest]; subst.
    (* it is enough to reach a state in which [v1] counts as processed *)
    assert (Hnext : forall ng2, rb ng2 ->
              (forall w, In w done -> In w (v1 :: procd) -> tag ng2 w <> 0) ->
              (forall w, edg ng2 w = expect (mem w (v1 :: procd)) w) ->
              exists ng', rebuild n g ng2 done rest = Ok ng' /\ rb ng'
                /\ (forall w, In w done -> In w (v1 :: rest) \/ In w procd -> tag ng' w <> 0)
                /\ (forall w, edg ng' w = expect (mem w (v1 :: rest) || mem w procd) w)).
    { intros ng2 R2 T2 E2. destruct (IH (v1 :: procd) ng2) as (ng' & A' & R' & T' & E'); auto.
      { intros x Hx [<-|Hp]; [contradiction | exact (Hfresh x (or_intror Hx) Hp)]. }
      exists ng'. split; [exact A'|]. split; [exact R'|]. split.
      - intros w Hd Hw. apply T'; [exact Hd|]. cbn [In] in *. tauto.
      - intros w. rewrite E', !mem_cons. f_equal. destruct (w =? v1), (mem w rest); reflexivity. }
    cbn [rebuild]. destruct (mem v1 done) eqn:M1.
    - apply mem_In in M1. destruct (add_rb ng v1 R M1) as (ng1 & -> & R1 & Ee1 & Tt1). cbn [obind].
      destruct (rebuild_edges_ok v1 M1 (edg g v1) [] ng1 eq_refl R1) as (ng2 & -> & R2 & Tm2 & Fr2 & Ev2).
      { apply Tt1. auto. }
      { rewrite Ee1, Ep. unfold expect. rewrite (proj2 (mem_false v1 procd)), andb_false_r; auto using in_eq. }
      cbn [obind]. apply Hnext; [exact R2| |].
      + intros w Hd Hp. apply Tm2, Tt1. destruct Hp as [<-|Hp]; auto.
      + intros w. rewrite mem_cons. destruct (Nat.eqb_spec w v1) as [->|Hne].
        * rewrite Ev2. unfold expect. rewrite (proj2 (mem_In v1 done) M1). reflexivity.
        * rewrite (Fr2 w Hne), Ee1. apply Ep.
    - apply Hnext; [exact R| |].
      + intros w Hd [<-|Hp]; [|auto]. apply mem_false in M1. contradiction.
      + intros w. rewrite mem_cons. destruct (Nat.eqb_spec w v1) as [->|]; [|apply Ep].
        rewrite Ep. unfold expect. rewrite M1. reflexivity.
  Qed.

  Lemma rebuild_all :
    exists ng, rebuild n g (op_empty (cap_of g)) done (iota (cap_of g)) = Ok ng
      /\ Inv n ng /\ cap_of ng = cap_of g
      /\ (forall w, tag ng w <> 0 <-> In w done)
      /\ (forall w, edg ng w = if mem w done then keep done (edg g w) else [])
      /\ (forall w, prs ng w = PEmpty).
  Proof.
    destruct (rebuild_ok (iota (cap_of g)) [] (op_empty (cap_of g))) as (ng & A & R & T & E).
    - apply seq_NoDup.
    - intros x _ [].
    - exact rb_empty.
    - intros w _ [].
    - intros w. rewrite edg_empty. unfold expect. cbn [mem existsb]. rewrite andb_false_r. reflexivity.
    - exists ng. destruct R as [RI RG RC RP RS RA].
      split; [exact A|]. split; [exact RI|]. split; [exact RC|]. split; [|split; [|exact RP]].
      + intros w. split; [apply RS|]. intros Hd. apply T; auto. left. apply in_iota, Hlt, Hd.
      + intros w. rewrite E. unfold expect. cbn [mem existsb]. rewrite orb_false_r.
        destruct (mem w done) eqn:Md; [|reflexivity].
        rewrite (proj2 (mem_In w (iota _))); [reflexivity|]. apply in_iota, Hlt, mem_In, Md.
  Qed.
End Rebuild.

(** [ng] is the sub-graph of [g] induced by the vertices reachable from [v]
    along edges that [p] accepts, without data; [kept] is the characteristic
    function of the kept set *)
Definition slice_of (n : nat) (p : pred) (g : sodg) (v : nat) (ng : sodg) : Prop :=
  Inv n ng /\ cap_of ng = cap_of g
  /\ (forall w, tag ng w <> 0 <-> reach p g v w)
  /\ (exists kept : nat -> bool,
        (forall w, kept w = true <-> reach p g v w)
        /\ forall w, edg ng w =
                     if kept w then filter (fun e : label * nat => kept (snd e)) (edg g w) else [])
  /\ (forall w, prs ng w = PEmpty).

(** Every hypothesis speaks of the part of the source that is reachable from
    [v].  Of [Inv] only the statement of the field [i_edges] is needed there:
    [rebuild] reads the source through [edg g _] and [cap_of g] alone.  At most
    [k <= 16] vertices may be kept: 16 is the capacity of one group (see
    [slice_chain_17] for why it cannot be 17); the property text has 14. *)
Theorem slice_some_spec n k order p g v :
  k <= 16 ->
  (forall u, reach p g v u -> NoDup (map fst (edg g u)) /\ length (edg g u) <= n) ->
  (forall l, Permutation (order l) l) -> pclosed p g v ->
  (forall rs, NoDup rs -> (forall u, In u rs -> reach p g v u) -> length rs <= k) ->
  (forall u a, reach p g v u -> ~ In (a, u) (edg g u)) ->
  exists ng, op_slice_some n order g v p = Ok ng /\ slice_of n p g v ng.
Proof.
  intros Hk Hg Ho Hc Hb Hs.
  destruct (closure_correct order p g v Ho Hc) as (done & Ecl & Nd & Hr).
  destruct (rebuild_all n g done) as (ng & A & I & C & T & E & P).
  - intros u Hu. apply Hg, Hr, Hu.
  - apply Nat.le_trans with k; [|exact Hk]. apply Hb; [exact Nd | apply Hr].
  - intros x Hx. eapply pclosed_reach_lt; [exact Hc | apply Hr; exact Hx].
  - intros u a Hu. apply Hs, Hr, Hu.
  - exists ng. unfold op_slice_some. rewrite Ecl. cbn [obind].
    split; [exact A|]. split; [exact I|]. split; [exact C|]. split; [|split; [|exact P]].
    + intros w. rewrite T. apply Hr.
    + exists (fun w => mem w done). split; [|exact E]. intros w. rewrite mem_In. apply Hr.
Qed.

Corollary slice_some_is n k order p g v ng :
  k <= 16 ->
  (forall u, reach p g v u -> NoDup (map fst (edg g u)) /\ length (edg g u) <= n) ->
  (forall l, Permutation (order l) l) -> pclosed p g v ->
  (forall rs, NoDup rs -> (forall u, In u rs -> reach p g v u) -> length rs <= k) ->
  (forall u a, reach p g v u -> ~ In (a, u) (edg g u)) ->
  op_slice_some n order g v p = Ok ng -> slice_of n p g v ng.
Proof.
  intros Hk Hg Ho Hc Hb Hs A.
  destruct (slice_some_spec n k order p g v Hk Hg Ho Hc Hb Hs) as (ng' & A' & S). congruence.
Qed.

Lemma slice_of_edges n p g v ng : slice_of n p g v ng ->
  forall w a t,
    In (a, t) (edg ng w) <-> reach p g v w /\ In (a, t) (edg g w) /\ reach p g v t.
Proof.
  intros (_ & _ & _ & (kept & K & E) & _) w a t. rewrite E. destruct (kept w) eqn:Kw.
  - rewrite filter_In. cbn [snd]. rewrite !K. apply K in Kw. tauto.
  - split; [intros []|]. intros (Hw & _). apply K in Hw. congruence.
Qed.

Lemma slice_of_accepted_edges_kept n p g v ng : slice_of n p g v ng ->
  forall w a t, tag ng w <> 0 -> In (a, t) (edg g w) -> p w t a = true ->
    In (a, t) (edg ng w) /\ tag ng t <> 0.
Proof.
  intros S w a t Tw Hin Hp. pose proof S as (_ & _ & T & _).
  apply T in Tw. pose proof (reach_step p g v w a t Tw Hin Hp) as Ht.
  split; [apply (slice_of_edges n p g v ng S); auto | apply T; exact Ht].
Qed.

Lemma slice_of_no_foreign_edge n p g v ng : slice_of n p g v ng ->
  forall w a t, In (a, t) (edg ng w) -> In (a, t) (edg g w) /\ tag ng w <> 0 /\ tag ng t <> 0.
Proof.
  intros S w a t Hin. pose proof S as (_ & _ & T & _).
  apply (slice_of_edges n p g v ng S) in Hin as (Hw & He & Ht). rewrite !T. auto.
Qed.

Lemma slice_of_no_data n p g v ng : slice_of n p g v ng ->
  forall w, prs ng w = PEmpty /\ has_data ng w = false.
Proof. intros (_ & _ & _ & _ & P) w. unfold has_data. rewrite P. auto. Qed.

Lemma slice_of_ptrue n g v ng : slice_of n ptrue g v ng ->
  Inv n ng /\ cap_of ng = cap_of g
  /\ (forall w, tag ng w <> 0 <-> reach ptrue g v w)
  /\ (forall w a t, In (a, t) (edg ng w) <-> reach ptrue g v w /\ In (a, t) (edg g w))
  /\ (forall w, reach ptrue g v w -> edg ng w = edg g w)
  /\ (forall w, prs ng w = PEmpty).
Proof.
  intros S. pose proof S as (I & C & T & (kept & K & E) & P).
  split; [exact I|]. split; [exact C|]. split; [exact T|]. split; [|split; [|exact P]].
  - intros w a t. rewrite (slice_of_edges n ptrue g v ng S). split; [tauto|].
    intros (Hw & He). split; [exact Hw|]. split; [exact He|].
    apply (reach_step ptrue g v w a t); auto.
  - intros w Hw. rewrite E. apply K in Hw as Kw. rewrite Kw.
    apply filter_id. intros [a t] He. apply K. apply (reach_step ptrue g v w a t); auto.
Qed.

Theorem slice_spec n order g v :
  (forall u, reach ptrue g v u -> NoDup (map fst (edg g u)) /\ length (edg g u) <= n) ->
  (forall l, Permutation (order l) l) -> closed g v ->
  (forall rs, NoDup rs -> (forall u, In u rs -> reach ptrue g v u) -> length rs <= 14) ->
  (forall u a, reach ptrue g v u -> ~ In (a, u) (edg g u)) ->
  exists ng,
    op_slice n order g v = Ok ng
    /\ Inv n ng /\ cap_of ng = cap_of g
    /\ (forall w, tag ng w <> 0 <-> reach ptrue g v w)
    /\ (forall w a t, In (a, t) (edg ng w) <-> reach ptrue g v w /\ In (a, t) (edg g w))
    /\ (forall w, reach ptrue g v w -> edg ng w = edg g w)
    /\ (forall w, prs ng w = PEmpty).
Proof.
  intros Hg Ho Hc Hb Hs. apply closed_pclosed in Hc.
  destruct (slice_some_spec n 14 order ptrue g v) as (ng & A & S); auto.
  exists ng. split; [exact A | exact (slice_of_ptrue n g v ng S)].
Qed.

Theorem slice_correct n order g v :
  Inv n g -> (forall l, Permutation (order l) l) -> closed g v ->
  (forall rs, NoDup rs -> (forall u, In u rs -> reach ptrue g v u) -> length rs <= 14) ->
  (forall u a, reach ptrue g v u -> ~ In (a, u) (edg g u)) ->
  exists ng,
    op_slice n order g v = Ok ng
    /\ Inv n ng /\ cap_of ng = cap_of g
    /\ (forall w, tag ng w <> 0 <-> reach ptrue g v w)
    /\ (forall w a t, In (a, t) (edg ng w) <-> reach ptrue g v w /\ In (a, t) (edg g w))
    /\ (forall w, reach ptrue g v w -> edg ng w = edg g w)
    /\ (forall w, prs ng w = PEmpty).
Proof. intros HI. apply slice_spec. intros u _. apply (i_edges HI). Qed.

(** ** the examples: tests for the hypotheses, states built through the
    interface, and the two findings *)

(** [within_limits] as a test *)
Fixpoint within_limitsb (n cap : nat) (s : spec) (os : list op) : bool :=
  match os with
  | [] => true
  | o :: t => preb n cap s o && within_limitsb n cap (fst (sstep s o)) t
  end.

Lemma within_limitsb_spec n cap : forall os s,
  within_limitsb n cap s os = true -> within_limits n cap s os.
Proof. exact (limitsb_ok n cap). Qed.

(** the state after the calls [os] on an empty graph (which also stands for a
    failed run) *)
Definition built (n cap : nat) (os : list op) : sodg :=
  match run n (op_empty cap) os with Ok r => fst r | _ => op_empty cap end.

Lemma built_inv n cap os : within_limitsb n cap sinit os = true -> Inv n (built n cap os).
Proof. exact (limitsb_inv n cap os (op_empty cap)). Qed.

(** sufficient tests for the hypotheses of [slice_some_spec] *)

Definition noselfb (g : sodg) : bool :=
  forallb (fun u => forallb (fun e : label * nat => negb (snd e =? u)) (edg g u)) (iota (cap_of g)).

Lemma noselfb_spec g : noselfb g = true -> forall u a, ~ In (a, u) (edg g u).
Proof.
  intros H u a Hin. pose proof (forallb_edges _ g H u (a, u) Hin) as E.
  cbn [snd] in E. rewrite Nat.eqb_refl in E. discriminate.
Qed.

Lemma bound_of_cap p g v k :
  pclosed p g v -> cap_of g <= k ->
  forall rs, NoDup rs -> (forall u, In u rs -> reach p g v u) -> length rs <= k.
Proof.
  intros Hc Hk rs N H. eapply Nat.le_trans; [|exact Hk].
  apply nodup_lt_length; auto. intros x Hx. eapply pclosed_reach_lt; eauto.
Qed.

(** the example graph, built through the interface (so it is a reachable
    state): cycle 0 -> 1 -> 2 -> 0, a second edge 0 -> 1, data on 1, and a
    vertex 3 that points into the cycle but is not reachable from 0 *)
Definition ex_api_calls : list op :=
  [OAdd 0; OAdd 1; OAdd 2; OAdd 3; OPut 1 (HVector [7%N]);
   OBind 0 1 (Alpha 1); OBind 0 1 (Alpha 0); OBind 1 2 (Greek 945);
   OBind 2 0 (Alpha 0); OBind 3 0 (Alpha 0)].

Definition ex_api : sodg := built 4 5 ex_api_calls.

Lemma ex_api_inv : Inv 4 ex_api.
Proof. apply built_inv. vm_compute. reflexivity. Qed.

(** whatever the predicate: no edge of [ex_api] leaves its 5 slots or is a loop *)
Lemma ex_api_hyps p :
  pclosed p ex_api 0
  /\ (forall rs, NoDup rs -> (forall u, In u rs -> reach p ex_api 0 u) -> length rs <= 14)
  /\ (forall u a, reach p ex_api 0 u -> ~ In (a, u) (edg ex_api u)).
Proof.
  assert (Hc : pclosed p ex_api 0) by (apply closedb_pclosed; [vm_compute; reflexivity | vm_compute; lia]).
  split; [exact Hc|]. split; [apply (bound_of_cap p ex_api 0 14 Hc); vm_compute; lia|].
  intros u a _. apply noselfb_spec. vm_compute; reflexivity.
Qed.

(** Finding 1: a self loop.  [rebuild] calls [bind(v, v, a)], outside the
    documented precondition of [bind] (distinct ends).  When [v] is still
    ungrouped at that moment the call does not panic but enters [v] twice in
    the member list of a new group: the result violates [Inv]. *)
Definition ex_selfloop : sodg :=
  set_vtx (op_empty 2) 0 (mkV 1 hex_empty PEmpty [(Alpha 0, 0)]).

Example slice_selfloop :
  exists ng, op_slice 4 (fun l => l) ex_selfloop 0 = Ok ng
    /\ tag ng 0 = 2 /\ members ng 2 = [0; 0] /\ edg ng 0 = [(Alpha 0, 0)]
    /\ ~ Inv 4 ng.
Proof.
  eexists. split; [vm_compute; reflexivity|].
  split; [reflexivity|]. split; [reflexivity|]. split; [reflexivity|].
  intros HI. pose proof (i_nodup HI 2 (le_n 2) ltac:(lia)) as H.
  change (NoDup [0; 0]) in H. inversion H as [|? ? Hn _]. apply Hn, in_eq.
Qed.

(** the same through the interface: [bind(0, 0, a)] on a fresh vertex *)
Example bind_selfloop :
  members (built 4 2 [OAdd 0; OBind 0 0 (Alpha 0)]) 2 = [0; 0].
Proof. vm_compute. reflexivity. Qed.

(** Finding 2: the bound.  Two chains 0 -> .. -> 8 and 9 -> .. -> k built
    separately (two groups) and then joined by the edge 8 -> 9 form a state
    reachable within all limits; [slice(0)] rebuilds it vertex by vertex into
    a single group, which holds 16 members: with 16 kept vertices the slice
    succeeds, with 17 it panics (microstack full). *)
Definition two_chains (k : nat) : list op :=
  map OAdd (iota (S k))
  ++ map (fun i => OBind i (S i) (Alpha 0)) (seq 0 8)
  ++ map (fun i => OBind i (S i) (Alpha 0)) (seq 9 (k - 9))
  ++ [OBind 8 9 (Alpha 0)].

Example slice_chain_16 :
  within_limitsb 1 16 sinit (two_chains 15) = true
  /\ is_ok (op_slice 1 (fun l => l) (built 1 16 (two_chains 15)) 0) = true.
Proof. vm_compute. split; reflexivity. Qed.

Example slice_chain_17 :
  within_limitsb 1 17 sinit (two_chains 16) = true
  /\ closedb (built 1 17 (two_chains 16)) = true
  /\ noselfb (built 1 17 (two_chains 16)) = true
  /\ op_slice 1 (fun l => l) (built 1 17 (two_chains 16)) 0 = Panic PStackFull.
Proof. vm_compute. repeat split. Qed.

(** ** the states the interface reaches

    In a state reached by calls within the limits every edge leads to a slot
    of the graph and no vertex has an edge to itself ([bind] is only called
    with distinct, present ends), so for such a state the hypotheses
    [pclosed] and "no self loop" of [slice_some_spec] hold by themselves. *)

Definition edges_ok (g : sodg) : Prop :=
  forall u a t, In (a, t) (edg g u) -> t <> u /\ t < cap_of g.

Lemma step_edges_ok n g o g' r :
  Inv n g -> cpre n g o -> edges_ok g -> step n g o = Ok (g', r) -> edges_ok g'.
Proof.
  intros HI Hc Hok Hs u a t Hin. rewrite (proj1 (step_shape n g o g' r Hs)).
  destruct (proj2 (proj2 (step_provenance n g o g' r HI Hc Hs)) u a t Hin) as [H| ->]; [exact (Hok u a t H)|].
  destruct Hc as (_ & T2 & Hne & _). split; [congruence | apply tag_nonzero_lt, T2].
Qed.

Lemma reachable_state n cap os g rs :
  within_limits n cap sinit os -> run n (op_empty cap) os = Ok (g, rs) ->
  Inv n g /\ edges_ok g /\ cap_of g = cap.
Proof.
  intros HW Hrun. rewrite <- (cap_empty cap) in HW.
  destruct (sim_run_with n (fun _ => True) edges_ok
              (fun g o g' r HI Hc _ => step_edges_ok n g o g' r HI Hc)
              os (op_empty cap) sinit (inv_empty n cap) (R_init cap))
    as (g2 & A & I2 & O & _ & C); [|exact HW|apply Forall_forall; intros; exact I|].
  - intros u a t Hin. rewrite edg_empty in Hin. destruct Hin.
  - rewrite Hrun in A. injection A as <- _. rewrite cap_empty in C. auto.
Qed.

Lemma edges_ok_pclosed p g v : edges_ok g -> v < cap_of g -> pclosed p g v.
Proof.
  intros Hok Hv. split; [exact Hv|]. intros u a w _ Hin _. apply (Hok u a w Hin).
Qed.

(** C13 for the states of the property's quantifier: reached through the
    interface within the limits; the start vertex is a slot of the graph *)
Theorem slice_some_reachable n cap os g rs order p v :
  within_limits n cap sinit os -> run n (op_empty cap) os = Ok (g, rs) ->
  (forall l, Permutation (order l) l) -> v < cap ->
  (forall ks, NoDup ks -> (forall u, In u ks -> reach p g v u) -> length ks <= 14) ->
  exists ng,
    op_slice_some n order g v p = Ok ng
    /\ Inv n ng /\ cap_of ng = cap_of g
    /\ (forall w, tag ng w <> 0 <-> reach p g v w)
    /\ (forall w a t, In (a, t) (edg ng w) <-> reach p g v w /\ In (a, t) (edg g w) /\ reach p g v t)
    /\ (forall w, prs ng w = PEmpty).
Proof.
  intros HW Hrun Ho Hv Hb.
  destruct (reachable_state n cap os g rs HW Hrun) as (HI & Hok & C).
  assert (Hc : pclosed p g v) by (apply edges_ok_pclosed; [exact Hok | rewrite C; exact Hv]).
  assert (Hs : forall u a, reach p g v u -> ~ In (a, u) (edg g u)).
  { intros u a _ Hin. destruct (Hok u a u Hin) as [H _]. apply H. reflexivity. }
  destruct (slice_some_spec n 14 order p g v) as (ng & A & S); auto using i_edges.
  pose proof S as (I & Cn & T & _ & P).
  exists ng. split; [exact A|]. split; [exact I|]. split; [exact Cn|]. split; [exact T|].
  split; [exact (slice_of_edges n p g v ng S) | exact P].
Qed.

Print Assumptions slice_some_reachable.
Print Assumptions slice_correct.
