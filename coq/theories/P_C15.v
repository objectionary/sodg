(** * P_C15: property C15 of the sodg verification.

    "A Hex holds exactly the bytes it was built from: bytes/len/to_vec/print/
    indexing/byte_at/tail/equality depend only on that byte string and never
    on whether it is stored inline (up to 8 bytes) or on the heap, and every
    index or range panics exactly when the same index on the byte slice
    would.  from_str(print(h)) equals h for every h, and the i64/f64
    conversions are bit-exact inverses of From that fail for any length other
    than 8."

    Quantifier: every byte string, both representations including inline
    arrays with non-zero padding ([wf_hex] constrains only what the Rust
    types and the crate invariant guarantee: 8 array bytes, bytes < 256,
    used length <= 8), every index, every range of the six kinds.  Indices
    and bounds are arbitrary [N] (no upper bound is needed).

    [same_out x y] (HexFacts.v): both [Ok] with equal values, or both [Panic]
    (the panic kind is not compared); false in every other case.

    The lemmas are in HexFacts.v; the theorems below restate them or
    assemble them. *)

From Sodg Require Import Hex HexFacts.

Theorem C15_len :
  forall h, wf_hex h = true -> hex_len h = length (bytes h).
Proof. exact len_bytes. Qed.

Check C15_len :
  forall h, wf_hex h = true -> hex_len h = length (bytes h).
Print Assumptions C15_len.

Theorem C15_to_vec :
  forall h, hex_to_vec h = bytes h.
Proof. reflexivity. Qed.

Check C15_to_vec :
  forall h, hex_to_vec h = bytes h.
Print Assumptions C15_to_vec.

Theorem C15_is_empty :
  forall h, wf_hex h = true -> (hex_is_empty h = true <-> bytes h = []).
Proof.
  intros h W. rewrite (is_empty_isnil h W). destruct (bytes h); cbn [isnil]; split; congruence.
Qed.

Check C15_is_empty :
  forall h, wf_hex h = true -> (hex_is_empty h = true <-> bytes h = []).
Print Assumptions C15_is_empty.

Theorem C15_eq :
  forall a b, hex_eqb a b = true <-> bytes a = bytes b.
Proof. exact hex_eqb_spec. Qed.

Check C15_eq :
  forall a b, hex_eqb a b = true <-> bytes a = bytes b.
Print Assumptions C15_eq.

Theorem C15_index :
  forall h i, wf_hex h = true -> same_out (hex_index h i) (idx (bytes h) i).
Proof. exact index_bytes. Qed.

Check C15_index :
  forall h i, wf_hex h = true -> same_out (hex_index h i) (idx (bytes h) i).
Print Assumptions C15_index.

Theorem C15_range :
  forall h k s e, wf_hex h = true ->
    same_out (hex_range h k s e) (sl_kind (bytes h) k s e).
Proof. exact range_bytes. Qed.

Check C15_range :
  forall h k s e, wf_hex h = true ->
    same_out (hex_range h k s e) (sl_kind (bytes h) k s e).
Print Assumptions C15_range.

Theorem C15_byte_at :
  forall h p, wf_hex h = true ->
    same_out (hex_byte_at h p) (idx (bytes h) p) /\
    same_out (hex_byte_at h p) (hex_index h p).
Proof.
  intros h p W. split; [apply idx_same | apply same_out_sym, C15_index, W].
Qed.

Check C15_byte_at :
  forall h p, wf_hex h = true ->
    same_out (hex_byte_at h p) (idx (bytes h) p) /\
    same_out (hex_byte_at h p) (hex_index h p).
Print Assumptions C15_byte_at.

Theorem C15_tail :
  forall h skip, wf_hex h = true ->
    ((skip <= nlen (bytes h))%N ->
       exists t, hex_tail h skip = Ok t /\
                 bytes t = skipn (N.to_nat skip) (bytes h) /\
                 wf_hex t = true) /\
    ((nlen (bytes h) < skip)%N -> exists k, hex_tail h skip = Panic k).
Proof.
  intros h skip W. split; intros Hs.
  - eexists. split; [apply tail_ok, Hs|]. split; [apply bytes_from_vec|].
    apply wf_from_vec, forallb_skipn, wf_bytes_all, W.
  - exists PIndex. apply tail_panic, Hs.
Qed.

Check C15_tail :
  forall h skip, wf_hex h = true ->
    ((skip <= nlen (bytes h))%N ->
       exists t, hex_tail h skip = Ok t /\
                 bytes t = skipn (N.to_nat skip) (bytes h) /\
                 wf_hex t = true) /\
    ((nlen (bytes h) < skip)%N -> exists k, hex_tail h skip = Panic k).
Print Assumptions C15_tail.

Theorem C15_repr :
  forall h1 h2,
    wf_hex h1 = true -> wf_hex h2 = true -> bytes h1 = bytes h2 ->
    hex_len h1 = hex_len h2 /\
    hex_print h1 = hex_print h2 /\
    (forall i, same_out (hex_index h1 i) (hex_index h2 i)) /\
    (forall k s e, same_out (hex_range h1 k s e) (hex_range h2 k s e)) /\
    (forall p, same_out (hex_byte_at h1 p) (hex_byte_at h2 p)) /\
    hex_to_i64 h1 = hex_to_i64 h2 /\
    hex_to_f64_bits h1 = hex_to_f64_bits h2 /\
    (forall x, hex_eqb h1 x = hex_eqb h2 x).
Proof.
  intros h1 h2 W1 W2 E.
  (* [hex_len], [hex_index] and [hex_range] are functions of [bytes] by the
     theorems above; the other accessors are defined on [bytes] *)
  unfold hex_print, hex_byte_at, hex_to_i64, hex_to_f64_bits, hex_eqb.
  rewrite (C15_len h1 W1), (C15_len h2 W2), E.
  split; [reflexivity|]. split; [reflexivity|].
  split. { intros i. exact (via_bytes (fun h => hex_index h i) (fun l => idx l i)
                              (fun h => C15_index h i) h1 h2 W1 W2 E). }
  split. { intros k s e. exact (via_bytes (fun h => hex_range h k s e) (fun l => sl_kind l k s e)
                                  (fun h => C15_range h k s e) h1 h2 W1 W2 E). }
  split; [intros p; apply idx_same|]. auto.
Qed.

Check C15_repr :
  forall h1 h2,
    wf_hex h1 = true -> wf_hex h2 = true -> bytes h1 = bytes h2 ->
    hex_len h1 = hex_len h2 /\
    hex_print h1 = hex_print h2 /\
    (forall i, same_out (hex_index h1 i) (hex_index h2 i)) /\
    (forall k s e, same_out (hex_range h1 k s e) (hex_range h2 k s e)) /\
    (forall p, same_out (hex_byte_at h1 p) (hex_byte_at h2 p)) /\
    hex_to_i64 h1 = hex_to_i64 h2 /\
    hex_to_f64_bits h1 = hex_to_f64_bits h2 /\
    (forall x, hex_eqb h1 x = hex_eqb h2 x).
Print Assumptions C15_repr.

Theorem C15_from :
  forall l, forallb wf_byte l = true ->
    bytes (from_slice l) = l /\ wf_hex (from_slice l) = true /\
    bytes (from_vec l) = l /\ wf_hex (from_vec l) = true.
Proof.
  intros l Hl.
  auto using bytes_from_slice, wf_from_slice, bytes_from_vec, wf_from_vec.
Qed.

Check C15_from :
  forall l, forallb wf_byte l = true ->
    bytes (from_slice l) = l /\ wf_hex (from_slice l) = true /\
    bytes (from_vec l) = l /\ wf_hex (from_vec l) = true.
Print Assumptions C15_from.

Theorem C15_print_parse :
  forall h, wf_hex h = true ->
    exists h', hex_from_str (hex_print h) = Some h' /\
               bytes h' = bytes h /\ hex_eqb h' h = true.
Proof.
  intros h W. exists (from_vec (bytes h)).
  rewrite hex_print_of_bytes, from_str_print_of_bytes by apply wf_bytes_all, W.
  split; [reflexivity|]. split; [|apply C15_eq]; apply bytes_from_vec.
Qed.

Check C15_print_parse :
  forall h, wf_hex h = true ->
    exists h', hex_from_str (hex_print h) = Some h' /\
               bytes h' = bytes h /\ hex_eqb h' h = true.
Print Assumptions C15_print_parse.

Theorem C15_i64 :
  forall z, (- (2 ^ 63) <= z < 2 ^ 63)%Z -> hex_to_i64 (hex_from_i64 z) = Some z.
Proof. exact i64_roundtrip. Qed.

Check C15_i64 :
  forall z, (- (2 ^ 63) <= z < 2 ^ 63)%Z -> hex_to_i64 (hex_from_i64 z) = Some z.
Print Assumptions C15_i64.

Theorem C15_i64_len :
  forall h, hex_to_i64 h = None <-> length (bytes h) <> 8.
Proof. exact i64_len. Qed.

Check C15_i64_len :
  forall h, hex_to_i64 h = None <-> length (bytes h) <> 8.
Print Assumptions C15_i64_len.

Theorem C15_i64_wf :
  forall z, wf_hex (hex_from_i64 z) = true.
Proof. exact i64_wf. Qed.

Check C15_i64_wf :
  forall z, wf_hex (hex_from_i64 z) = true.
Print Assumptions C15_i64_wf.

Theorem C15_f64 :
  forall w, (w < 2 ^ 64)%N -> hex_to_f64_bits (hex_from_f64_bits w) = Some w.
Proof. exact f64_roundtrip. Qed.

Check C15_f64 :
  forall w, (w < 2 ^ 64)%N -> hex_to_f64_bits (hex_from_f64_bits w) = Some w.
Print Assumptions C15_f64.

Theorem C15_f64_len :
  forall h, hex_to_f64_bits h = None <-> length (bytes h) <> 8.
Proof. exact f64_len. Qed.

Check C15_f64_len :
  forall h, hex_to_f64_bits h = None <-> length (bytes h) <> 8.
Print Assumptions C15_f64_len.

Theorem C15_f64_wf :
  forall w, wf_hex (hex_from_f64_bits w) = true.
Proof. exact f64_wf. Qed.

Check C15_f64_wf :
  forall w, wf_hex (hex_from_f64_bits w) = true.
Print Assumptions C15_f64_wf.

(** ** the hypotheses are satisfiable, the panic cases are reached *)

(** an inline value with non-zero padding is well formed; its bytes are the
    used prefix only *)
Example ex_wf_padding : wf_hex (HBytes [1;2;255;254;7;7;7;7]%N 2) = true.
Proof. vm_compute. reflexivity. Qed.

Example ex_bytes_padding : bytes (HBytes [1;2;255;254;7;7;7;7]%N 2) = [1;2]%N.
Proof. vm_compute. reflexivity. Qed.

Example ex_wf_heap : wf_hex (HVector [1;2;3;4;5;6;7;8;9;10]%N) = true.
Proof. vm_compute. reflexivity. Qed.

(** same bytes, both representations (hypotheses of [C15_repr]) *)
Example ex_repr_hyp :
  wf_hex (HBytes [1;2;255;254;7;7;7;7]%N 2) = true /\
  wf_hex (HVector [1;2]%N) = true /\
  bytes (HBytes [1;2;255;254;7;7;7;7]%N 2) = bytes (HVector [1;2]%N).
Proof. vm_compute. repeat split. Qed.

(** indexing into the padding panics, like the slice (different panic kind) *)
Example ex_index_padding :
  hex_index (HBytes [1;2;255;254;7;7;7;7]%N 2) 2 = Panic PAssert /\
  idx [1;2]%N 2 = Panic PIndex.
Proof. vm_compute. split; reflexivity. Qed.

(** ranges: [s > e], [e = len], [e = len + 1], [e = usize_max] *)
Example ex_range_s_gt_e :
  hex_range (HBytes [1;2;255;254;7;7;7;7]%N 2) RRange 2 1 = Panic PIndex /\
  sl_kind [1;2]%N RRange 2 1 = Panic PIndex.
Proof. vm_compute. split; reflexivity. Qed.

Example ex_range_e_len :
  hex_range (HBytes [1;2;255;254;7;7;7;7]%N 2) RRange 1 2 = Ok [2]%N /\
  sl_kind [1;2]%N RRange 1 2 = Ok [2]%N.
Proof. vm_compute. split; reflexivity. Qed.

Example ex_range_e_past_len :
  hex_range (HBytes [1;2;255;254;7;7;7;7]%N 2) RRange 1 3 = Panic PAssert /\
  sl_kind [1;2]%N RRange 1 3 = Panic PIndex.
Proof. vm_compute. split; reflexivity. Qed.

Example ex_range_incl_max :
  hex_range (HBytes [1;2;255;254;7;7;7;7]%N 2) RIncl 0 usize_max = Panic PAssert /\
  sl_kind [1;2]%N RIncl 0 usize_max = Panic PIndex /\
  hex_range (HVector [1;2]%N) RToIncl 0 usize_max = Panic PIndex.
Proof. vm_compute. repeat split. Qed.

Example ex_range_from_len :
  hex_range (HBytes [1;2;255;254;7;7;7;7]%N 2) RFrom 2 0 = Ok [] /\
  hex_range (HBytes [1;2;255;254;7;7;7;7]%N 2) RFrom 3 0 = Panic PAssert /\
  sl_kind [1;2]%N RFrom 3 0 = Panic PIndex.
Proof. vm_compute. repeat split. Qed.

(** tail: both branches of [C15_tail] *)
Example ex_tail_ok :
  hex_tail (HVector [1;2;3;4;5;6;7;8;9;10]%N) 3 =
  Ok (HBytes [4;5;6;7;8;9;10;0]%N 7).
Proof. vm_compute. reflexivity. Qed.

Example ex_tail_panic :
  hex_tail (HBytes [1;2;255;254;7;7;7;7]%N 2) 3 = Panic PIndex.
Proof. vm_compute. reflexivity. Qed.

(** print / from_str: "01-02" and the empty "--" *)
Example ex_print :
  hex_print (HBytes [1;2;255;254;7;7;7;7]%N 2) = [48;49;45;48;50]%N /\
  hex_print (HBytes [9;9;9;9;9;9;9;9]%N 0) = [45;45]%N.
Proof. vm_compute. split; reflexivity. Qed.

Example ex_print_parse :
  hex_from_str (hex_print (HBytes [1;2;255;254;7;7;7;7]%N 2)) =
  Some (HBytes [1;2;0;0;0;0;0;0]%N 2) /\
  hex_from_str (hex_print (HBytes [9;9;9;9;9;9;9;9]%N 0)) =
  Some (HBytes [0;0;0;0;0;0;0;0]%N 0).
Proof. vm_compute. split; reflexivity. Qed.

(** integers and floats: the bounds are inhabited, other lengths fail *)
Example ex_i64_bounds :
  (- (2 ^ 63) <= - (2 ^ 63) < 2 ^ 63)%Z /\ (- (2 ^ 63) <= 2 ^ 63 - 1 < 2 ^ 63)%Z.
Proof. vm_compute. repeat split; discriminate. Qed.

Example ex_i64_minus_one :
  hex_from_i64 (-1) = HBytes [255;255;255;255;255;255;255;255]%N 8 /\
  hex_to_i64 (hex_from_i64 (-1)) = Some (-1)%Z.
Proof. split; [vm_compute; reflexivity | apply C15_i64; split; [discriminate | reflexivity]]. Qed.

Example ex_i64_min :
  hex_to_i64 (hex_from_i64 (- (2 ^ 63))) = Some (- (2 ^ 63))%Z.
Proof. apply C15_i64, ex_i64_bounds. Qed.

Example ex_i64_short :
  hex_to_i64 (HBytes [1;2;255;254;7;7;7;7]%N 2) = None /\
  hex_to_i64 (HVector [1;2;3;4;5;6;7;8;9]%N) = None.
Proof. vm_compute. split; reflexivity. Qed.

Example ex_f64_bound : (2 ^ 64 - 1 < 2 ^ 64)%N.
Proof. vm_compute. reflexivity. Qed.

Example ex_f64_pi :
  hex_to_f64_bits (hex_from_f64_bits 4614256656552045848) = Some 4614256656552045848%N.
Proof. apply C15_f64. reflexivity. Qed.

Example ex_f64_short :
  hex_to_f64_bits (HBytes [1;2;255;254;7;7;7;7]%N 7) = None.
Proof. vm_compute. reflexivity. Qed.
