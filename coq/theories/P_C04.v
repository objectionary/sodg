(** * C04  add() creates a blank vertex or does nothing

    Property text: add(v) on an absent id makes v present with no edges and no
    data, even when v was the id of a vertex that was collected earlier.
    add(v) on a present id changes nothing: not its edges, not its data, not
    its group, nor the moment it will be collected.

    The model is a function of the state, so "changes nothing" is stated as
    equality of the whole state: every later call then behaves identically,
    which includes the moment of collection.  Nothing is assumed about the
    content of an absent slot (a collected vertex leaves its old edges and
    data there), so "even when v was collected earlier" is covered by the
    quantification over all states. *)

From Sodg Require Import Effects.

Theorem C04_absent : forall g v,
  v < cap_of g -> tag g v = 0 ->
  exists g', op_add g v = Ok g'
    /\ tag g' v = 1 /\ op_kids g' v = Ok [] /\ (forall a, op_kid g' v a = Ok None)
    /\ op_data g' v = Ok (g', None)
    /\ (forall w, w <> v -> vtx g' w = vtx g w)
    /\ (forall b, members g' b = members g b) /\ (forall b, store g' b = store g b)
    /\ g_next g' = g_next g /\ cap_of g' = cap_of g.
Proof.
  intros g v Hv Ht. rewrite op_add_eq, Ht by exact Hv. cbn [Nat.eqb].
  eexists. split; [reflexivity|]. set (g' := set_vtx g v _).
  assert (Hv' : v < cap_of g') by (unfold g'; rewrite cap_set_vtx; exact Hv).
  assert (Hx : vtx g' v = mkV 1 hex_empty PEmpty []) by (apply vtx_set_vtx_eq; exact Hv).
  assert (Ht' : tag g' v = 1) by (unfold tag; rewrite Hx; reflexivity).
  repeat split.
  - exact Ht'.
  - rewrite op_kids_present by lia. unfold edg. rewrite Hx. reflexivity.
  - intros a. rewrite op_kid_present by lia. unfold edg. rewrite Hx. reflexivity.
  - apply op_data_empty; [exact Hv'|]. unfold prs. rewrite Hx. reflexivity.
  - intros w Hw. apply vtx_set_vtx_neq. congruence.
  - apply cap_set_vtx.
Qed.
Check C04_absent : forall g v,
  v < cap_of g -> tag g v = 0 ->
  exists g', op_add g v = Ok g'
    /\ tag g' v = 1 /\ op_kids g' v = Ok [] /\ (forall a, op_kid g' v a = Ok None)
    /\ op_data g' v = Ok (g', None)
    /\ (forall w, w <> v -> vtx g' w = vtx g w)
    /\ (forall b, members g' b = members g b) /\ (forall b, store g' b = store g b)
    /\ g_next g' = g_next g /\ cap_of g' = cap_of g.
Print Assumptions C04_absent.

Theorem C04_present : forall g v, v < cap_of g -> tag g v <> 0 -> op_add g v = Ok g.
Proof.
  intros g v Hv Ht. rewrite op_add_eq by exact Hv. apply Nat.eqb_neq in Ht. rewrite Ht. reflexivity.
Qed.
Check C04_present : forall g v, v < cap_of g -> tag g v <> 0 -> op_add g v = Ok g.
Print Assumptions C04_present.

Theorem C04_after_next_id : forall g g' id,
  op_next_id g = Ok (g', id) ->
  exists g'', op_add g' id = Ok g'' /\ tag g'' id = 1 /\ op_kids g'' id = Ok []
              /\ op_data g'' id = Ok (g'', None).
Proof.
  intros g g' id H. apply op_next_id_inv in H as (-> & _ & Hv & Ht & _).
  destruct (C04_absent (set_next g (S id)) id Hv Ht) as (g'' & A & B & C & _ & D & _).
  exists g''. auto.
Qed.
Check C04_after_next_id : forall g g' id,
  op_next_id g = Ok (g', id) ->
  exists g'', op_add g' id = Ok g'' /\ tag g'' id = 1 /\ op_kids g'' id = Ok []
              /\ op_data g'' id = Ok (g'', None).
Print Assumptions C04_after_next_id.

(** non-vacuity: a recycled slot with stale content *)
Example C04_recycled_slot :
  let g0 := op_empty 4 in
  let stale := set_vtx g0 2 (mkV 0 (HVector [1; 2]%N) PTaken [(Alpha 0, 3)]) in
  2 < cap_of stale /\ tag stale 2 = 0 /\ edg stale 2 <> [] /\
  exists g', op_add stale 2 = Ok g' /\ edg g' 2 = [] /\ prs g' 2 = PEmpty.
Proof.
  cbv zeta. split; [vm_compute; lia|]. split; [reflexivity|].
  split; [vm_compute; discriminate|]. eexists. split; [vm_compute; reflexivity|].
  split; reflexivity.
Qed.

(** "... nor the moment it will be collected": after add() on a present vertex
    every continuation runs exactly as it would have run without that call *)

Theorem C04_present_same_future : forall n g v os,
  v < cap_of g -> tag g v <> 0 ->
  run n g (OAdd v :: os) = obind (run n g os) (fun r => Ok (fst r, RUnit :: snd r)).
Proof.
  intros n g v os Hv Ht. cbn [run step]. rewrite (C04_present g v Hv Ht). cbn [obind fst snd].
  destruct (run n g os) as [[g' rs]| | |]; reflexivity.
Qed.
Check C04_present_same_future : forall n g v os,
  v < cap_of g -> tag g v <> 0 ->
  run n g (OAdd v :: os) = obind (run n g os) (fun r => Ok (fst r, RUnit :: snd r)).
Print Assumptions C04_present_same_future.
