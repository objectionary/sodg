(** * C01  GC safety: nothing is collected early, collaterally, or by a non-reading call

    "The set of present vertices shrinks only as the immediate effect of a
    data() call that reads a vertex's datum for the first time since it was
    put.  Every vertex that call removes is linked to the vertex read through
    the history of bind calls and none of them holds a datum that was put and
    not yet read; a vertex that was never an endpoint of a bind is never
    removed.  No other call removes any vertex."

    Quantifier: every call sequence [os ++ [o]] within the capacity limits
    ([within_limits], judged on the reference model), every N >= 1 and vertex
    capacity; the statement is about the last call [o] after an arbitrary
    history [os], i.e. about every single call of every sequence.

    [present g w] is "w is in keys()" ([present_in_keys]); [is_stored g v] is "v holds a datum put
    and not yet read"; [linked E v w] is connectedness in the undirected graph
    whose edges are the bind(v1,v2) calls of the history; [endpoint E w] says w
    occurs in one of them.  clone() is the identity on the model (C10), slice()
    and save() do not touch their receiver (functional model), load() is C08,
    merge() is a sequence of add/bind/put/next_id calls (C11_as_calls), so that
    [C01_other_calls_remove_nothing] covers them. *)

From Sodg Require Import HistoryThms.

Theorem C01_safety :
  forall n cap os o,
  within_limits n cap sinit (os ++ [o]) ->
  exists g g' r,
    run n (op_empty cap) os = Ok (g, snd (srun sinit os))
    /\ step n g o = Ok (g', r)
    /\ forall w, present g w = true -> present g' w = false ->
         exists v, o = OData v /\ is_stored g v = true
                   /\ linked (bind_pairs os) v w /\ endpoint (bind_pairs os) w
                   /\ (w = v \/ is_stored g w = false).
Proof. exact safety_model. Qed.

Check C01_safety :
  forall n cap os o,
  within_limits n cap sinit (os ++ [o]) ->
  exists g g' r,
    run n (op_empty cap) os = Ok (g, snd (srun sinit os))
    /\ step n g o = Ok (g', r)
    /\ forall w, present g w = true -> present g' w = false ->
         exists v, o = OData v /\ is_stored g v = true
                   /\ linked (bind_pairs os) v w /\ endpoint (bind_pairs os) w
                   /\ (w = v \/ is_stored g w = false).
Print Assumptions C01_safety.

Theorem C01_other_calls_remove_nothing :
  forall n cap os o,
  within_limits n cap sinit (os ++ [o]) -> (forall v, o <> OData v) ->
  exists g g' r,
    run n (op_empty cap) os = Ok (g, snd (srun sinit os))
    /\ step n g o = Ok (g', r)
    /\ forall w, present g w = true -> present g' w = true.
Proof. exact other_calls_remove_nothing. Qed.

Check C01_other_calls_remove_nothing :
  forall n cap os o,
  within_limits n cap sinit (os ++ [o]) -> (forall v, o <> OData v) ->
  exists g g' r,
    run n (op_empty cap) os = Ok (g, snd (srun sinit os))
    /\ step n g o = Ok (g', r)
    /\ forall w, present g w = true -> present g' w = true.
Print Assumptions C01_other_calls_remove_nothing.

Theorem C01_reference_safety :
  forall n cap os o,
  within_limits n cap sinit (os ++ [o]) ->
  let s := fst (srun sinit os) in
  let s' := fst (sstep s o) in
  forall w, s_present s w = true -> s_present s' w = false ->
  exists v, o = OData v /\ s_unread s v = true
            /\ linked (bind_pairs os) v w /\ endpoint (bind_pairs os) w
            /\ s_unread s' w = false.
Proof. exact spec_safety. Qed.

Check C01_reference_safety :
  forall n cap os o,
  within_limits n cap sinit (os ++ [o]) ->
  let s := fst (srun sinit os) in
  let s' := fst (sstep s o) in
  forall w, s_present s w = true -> s_present s' w = false ->
  exists v, o = OData v /\ s_unread s v = true
            /\ linked (bind_pairs os) v w /\ endpoint (bind_pairs os) w
            /\ s_unread s' w = false.
Print Assumptions C01_reference_safety.

Theorem C01_empty_or_repeated_read_removes_nothing :
  forall s v,
  s_unread s v = false -> fst (sstep s (OData v)) = s.
Proof. exact spec_data_noop. Qed.

Check C01_empty_or_repeated_read_removes_nothing :
  forall s v,
  s_unread s v = false -> fst (sstep s (OData v)) = s.
Print Assumptions C01_empty_or_repeated_read_removes_nothing.

Theorem C01_unbound_vertex_never_removed :
  forall s v w,
  s_grp s v = None -> s_present (fst (sstep s (OData v))) w = s_present s w.
Proof. exact spec_data_ungrouped. Qed.

Check C01_unbound_vertex_never_removed :
  forall s v w,
  s_grp s v = None -> s_present (fst (sstep s (OData v))) w = s_present s w.
Print Assumptions C01_unbound_vertex_never_removed.

Theorem C01_def_present :
  forall g v, present g v = true <-> tag g v <> 0.
Proof. exact present_true. Qed.

Check C01_def_present :
  forall g v, present g v = true <-> tag g v <> 0.
Print Assumptions C01_def_present.

Theorem C01_clone_is_identity :
  forall g, op_clone g = g.
Proof. reflexivity. Qed.

Check C01_clone_is_identity :
  forall g, op_clone g = g.
Print Assumptions C01_clone_is_identity.


(** non-vacuity: a history within the limits whose last call collects, and
    the chain of binds that links the removed vertex 1 to the vertex read *)
Definition ex_os : list op :=
  [OAdd 1; OAdd 2; OAdd 3; OBind 1 2 (Alpha 0); OBind 3 2 (Greek 961); OPut 3 (HVector [9%N])].

Example C01_example : within_limits 2 4 sinit (ex_os ++ [OData 3])
  /\ s_keys (fst (srun sinit ex_os)) = [1; 2; 3]
  /\ s_keys (fst (srun sinit (ex_os ++ [OData 3]))) = []
  /\ linked (bind_pairs ex_os) 3 1.
Proof.
  split.
  - apply limitsb_ok. vm_compute. reflexivity.
  - split; [vm_compute; reflexivity|]. split; [vm_compute; reflexivity|].
    cbn. eapply l_trans; [apply l_edge; right; left; reflexivity|].
    apply l_sym. apply l_edge. left. reflexivity.
Qed.


