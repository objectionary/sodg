(** * Inv: the representation invariant of the graph model and its
    preservation by every primitive call made within concrete preconditions.

    [Inv n g] says what sodg's own bookkeeping relies on:
    - the two group tables have their 16 slots, slots 0 and 1 hold the
      sentinel member list [[0]] (so they are never handed out as a group);
    - every vertex carries a tag below 16; for every group slot b >= 2 the
      member list is duplicate free, at most 16 long, and lists exactly the
      vertices tagged b  (partition);
    - the unread counter of slot b equals the number of members of b whose
      datum is stored-and-unread  (counter = recount);
    - the labels of every vertex are pairwise distinct and at most n;
    - the allocator position does not exceed the capacity.

    [inv_empty]: it holds of [op_empty cap].  [step_inv]: a call within its
    concrete precondition [cpre] returns [Ok] and re-establishes it.  For the
    calls that change the state, [add_sum], [bind_sum], [put_sum] and
    [data_sum] say so together with what the call leaves alone;
    [step_provenance] says where the data and edges after a call come from. *)

From Sodg Require Export Effects.

Definition nstored (g : sodg) (l : list nat) : nat := length (filter (is_stored g) l).

Record Inv (n : nat) (g : sodg) : Prop := {
  i_nb : nb g = 16;
  i_ns : ns g = 16;
  i_m0 : members g 0 = [0];
  i_m1 : members g 1 = [0];
  i_next : g_next g <= cap_of g;
  i_tag : forall v, tag g v < 16;
  i_mem : forall b v, 2 <= b -> b < 16 -> (In v (members g b) <-> tag g v = b);
  i_nodup : forall b, 2 <= b -> b < 16 -> NoDup (members g b);
  i_len : forall b, 2 <= b -> b < 16 -> length (members g b) <= 16;
  i_cnt : forall b, 2 <= b -> b < 16 -> store g b = nstored g (members g b);
  i_edges : forall v, NoDup (map fst (edg g v)) /\ length (edg g v) <= n
}.

Arguments i_nb {n g} _.
Arguments i_ns {n g} _.
Arguments i_m0 {n g} _.
Arguments i_m1 {n g} _.
Arguments i_next {n g} _.
Arguments i_tag {n g} _ _.
Arguments i_mem {n g} _ _ _ _ _.
Arguments i_nodup {n g} _ _ _ _.
Arguments i_len {n g} _ _ _ _.
Arguments i_cnt {n g} _ _ _ _.
Arguments i_edges {n g} _ _.

Lemma inv_tag_nb n g v : Inv n g -> tag g v < nb g.
Proof. intros HI. rewrite (i_nb HI). apply (i_tag HI). Qed.

Lemma inv_tag_ns n g v : Inv n g -> tag g v < ns g.
Proof. intros HI. rewrite (i_ns HI). apply (i_tag HI). Qed.

(** ** counting lemmas *)

Lemma nstored_ext g g' l :
  (forall w, In w l -> is_stored g' w = is_stored g w) -> nstored g' l = nstored g l.
Proof. intros H. unfold nstored. rewrite (filter_ext_in _ _ l H). reflexivity. Qed.

Lemma nstored_app g l1 l2 : nstored g (l1 ++ l2) = nstored g l1 + nstored g l2.
Proof. unfold nstored. rewrite filter_app, app_length. reflexivity. Qed.

Lemma nstored_one g v : nstored g [v] = b2n (is_stored g v).
Proof. unfold nstored; cbn [filter]. destruct (is_stored g v); reflexivity. Qed.

Lemma nstored_nil g : nstored g [] = 0.
Proof. reflexivity. Qed.

(** when only [v] changes state, the count over a list that holds [v] once
    moves with it *)
Lemma nstored_change g g' l v :
  NoDup l -> In v l -> (forall w, w <> v -> is_stored g' w = is_stored g w) ->
  nstored g' l + b2n (is_stored g v) = nstored g l + b2n (is_stored g' v).
Proof.
  unfold nstored. induction l as [|x t IH]; intros Hnd Hin Q; [destruct Hin|].
  inversion Hnd as [|? ? Hx Ht]; subst. cbn [filter].
  destruct (Nat.eq_dec x v) as [->|Hne].
  - rewrite (filter_ext_in _ (is_stored g) t) by (intros w Hw; apply Q; intros ->; contradiction).
    destruct (is_stored g v), (is_stored g' v); cbn [length b2n]; lia.
  - rewrite (Q x Hne). destruct Hin as [Hin|Hin]; [congruence|]. specialize (IH Ht Hin Q).
    destruct (is_stored g x); cbn [length]; lia.
Qed.

Lemma nstored_flip_on g g' l v :
  NoDup l -> In v l -> is_stored g v = false -> is_stored g' v = true ->
  (forall w, w <> v -> is_stored g' w = is_stored g w) ->
  nstored g' l = nstored g l + 1.
Proof.
  intros Hnd Hin H0 H1 Q. pose proof (nstored_change g g' l v Hnd Hin Q) as C.
  rewrite H0, H1 in C. cbn [b2n] in C. lia.
Qed.

Lemma nstored_flip_off g g' l v :
  NoDup l -> In v l -> is_stored g v = true -> is_stored g' v = false ->
  (forall w, w <> v -> is_stored g' w = is_stored g w) ->
  nstored g l = nstored g' l + 1.
Proof.
  intros Hnd Hin H1 H0 Q. pose proof (nstored_change g g' l v Hnd Hin Q) as C.
  rewrite H0, H1 in C. cbn [b2n] in C. lia.
Qed.

Lemma nstored_zero g l : nstored g l = 0 <-> forall w, In w l -> is_stored g w = false.
Proof.
  unfold nstored. induction l as [|x t IH]; cbn [filter].
  - split; [intros _ w []|reflexivity].
  - destruct (is_stored g x) eqn:E; cbn [length].
    + split; [lia|]. intros H. specialize (H x (or_introl eq_refl)). congruence.
    + rewrite IH. split; intros H w Hw; [destruct Hw as [<-|Hw]; auto|apply H; right; exact Hw].
Qed.

Lemma nstored_le g l : nstored g l <= length l.
Proof.
  unfold nstored. induction l as [|x t IH]; cbn [filter length]; [lia|].
  destruct (is_stored g x); cbn [length]; lia.
Qed.

Lemma is_stored_prs g g' w : prs g' w = prs g w -> is_stored g' w = is_stored g w.
Proof. unfold is_stored. intros ->. reflexivity. Qed.

(** ** the initial graph *)

Lemma vtx_empty cap v : vtx (op_empty cap) v = blank.
Proof.
  unfold vtx, op_empty; cbn [g_vertices]. rewrite nth_repeat_any. destruct (v <? cap); reflexivity.
Qed.

Lemma tag_empty cap v : tag (op_empty cap) v = 0.
Proof. unfold tag. rewrite vtx_empty. reflexivity. Qed.

Lemma edg_empty cap v : edg (op_empty cap) v = [].
Proof. unfold edg. rewrite vtx_empty. reflexivity. Qed.

Lemma prs_empty cap v : prs (op_empty cap) v = PEmpty.
Proof. unfold prs. rewrite vtx_empty. reflexivity. Qed.

Lemma dat_empty cap v : dat (op_empty cap) v = hex_empty.
Proof. unfold dat. rewrite vtx_empty. reflexivity. Qed.

Lemma members_empty cap b : members (op_empty cap) b = if b <? 2 then [0] else [].
Proof.
  unfold members, op_empty; cbn [g_branches].
  destruct b as [|[|b]]; cbn [nth Nat.ltb Nat.leb]; try reflexivity.
  rewrite nth_repeat_any. destruct (b <? MAX_BRANCHES - 2); reflexivity.
Qed.

Lemma store_empty cap b : store (op_empty cap) b = 0.
Proof.
  unfold store, op_empty; cbn [g_stores]. rewrite nth_repeat_any.
  destruct (b <? MAX_BRANCHES); reflexivity.
Qed.

Lemma cap_empty cap : cap_of (op_empty cap) = cap.
Proof. unfold cap_of, op_empty; cbn [g_vertices]. apply repeat_length. Qed.

Lemma inv_empty n cap : Inv n (op_empty cap).
Proof.
  assert (M : forall b, 2 <= b -> members (op_empty cap) b = []).
  { intros b Hb. rewrite members_empty. destruct (Nat.ltb_spec b 2); [lia|reflexivity]. }
  split; try reflexivity.
  - cbn. lia.
  - intros v. rewrite tag_empty. lia.
  - intros b v H1 _. rewrite (M b H1), tag_empty. split; [intros []|lia].
  - intros b H1 _. rewrite (M b H1). constructor.
  - intros b H1 _. rewrite (M b H1). cbn. lia.
  - intros b H1 _. rewrite (M b H1), store_empty. reflexivity.
  - intros v. rewrite edg_empty. split; [constructor|cbn; lia].
Qed.

(** ** preconditions read off the graph

    [cpre] is [pre] of Spec.v with the graph in place of the reference state;
    [Refine.pre_cpre] leads from the one to the other. *)

Definition room (n : nat) (g : sodg) (v : nat) (a : label) : Prop :=
  mm_get (edg g v) a <> None \/ length (edg g v) < n.

Definition cpre (n : nat) (g : sodg) (o : op) : Prop :=
  match o with
  | OAdd v => v < cap_of g
  | OBind v1 v2 a =>
      tag g v1 <> 0 /\ tag g v2 <> 0 /\ v1 <> v2 /\ room n g v1 a
      /\ (tag g v1 = 1 -> tag g v2 = 1 -> exists b, first_empty g = Some b)
      /\ (tag g v1 = 1 -> tag g v2 <> 1 -> length (members g (tag g v2)) < 16)
      /\ (tag g v1 <> 1 -> tag g v2 = 1 -> length (members g (tag g v1)) < 16)
  | OPut v _ | OData v | OKid v _ | OKids v => tag g v <> 0
  | ONext => exists id, g_next g <= id /\ id < cap_of g /\ tag g id = 0
  | OKeys => True
  end.

(** ** room in the group tables

    The members of different group slots and the ungrouped vertices are all
    different present vertices, so a bound on the number of present vertices
    limits the slots in use and the length of every member list. *)

Lemma grouped_count n g ps bs us :
  Inv n g -> (forall w, tag g w <> 0 -> In w ps) ->
  NoDup bs -> (forall b, In b bs -> 2 <= b < 16) ->
  NoDup us -> (forall u, In u us -> tag g u = 1) ->
  length us + length (flat_map (members g) bs) <= length ps.
Proof.
  intros HI Hps Nb Hb Nu Hu.
  assert (Hm : forall x, In x (flat_map (members g) bs) -> 2 <= tag g x).
  { intros x Hx. apply in_flat_map in Hx as (b & B & Hx). destruct (Hb b B) as [B1 B2].
    apply (i_mem HI b x B1 B2) in Hx. lia. }
  rewrite <- app_length. apply NoDup_incl_length.
  - apply nodup_app. split; [exact Nu|]. split.
    + apply (nodup_flat_map _ (tag g)); [exact Nb| |].
      * intros b B. destruct (Hb b B). apply (i_nodup HI); assumption.
      * intros b x B. destruct (Hb b B). apply (i_mem HI); assumption.
    + intros x Hx Hy. apply Hm in Hy. rewrite (Hu x Hx) in Hy. lia.
  - intros x Hx. apply Hps. apply in_app_iff in Hx as [Hx|Hx]; [rewrite (Hu x Hx)|apply Hm in Hx]; lia.
Qed.

(** [m] is 1, or 2 for a graph whose groups never shrink below their first
    two members *)
Lemma first_empty_some n g ps m us :
  Inv n g -> (forall w, tag g w <> 0 -> In w ps) ->
  (forall b, 2 <= b -> b < 16 -> members g b = [] \/ m <= length (members g b)) ->
  NoDup us -> (forall u, In u us -> tag g u = 1) ->
  length ps < length us + m * 14 -> exists b, first_empty g = Some b.
Proof.
  intros HI Hps G Nu Hu Hlen. destruct (first_empty g) as [b|] eqn:F; [eauto|]. exfalso.
  assert (Hbs : forall b, In b (seq 2 14) -> 2 <= b < 16) by (intros b Hb; apply in_seq in Hb; lia).
  pose proof (grouped_count n g ps (seq 2 14) us HI Hps (seq_NoDup 14 2) Hbs Nu Hu) as Q.
  assert (L : m * length (seq 2 14) <= length (flat_map (members g) (seq 2 14))).
  { apply flat_map_length_ge. intros b Hb. destruct (Hbs b Hb) as [B1 B2].
    destruct (G b B1 B2) as [E|E]; [|exact E].
    destruct (first_empty_none g b F); [rewrite (i_nb HI); exact B2|exact E]. }
  rewrite seq_length in L. lia.
Qed.

Lemma members_room n g ps x t :
  Inv n g -> (forall w, tag g w <> 0 -> In w ps) -> length ps <= 16 ->
  tag g x = 1 -> 2 <= t -> t < 16 -> length (members g t) < 16.
Proof.
  intros HI Hps Hlen Tx H1 H2.
  assert (Q : length [x] + length (flat_map (members g) [t]) <= length ps).
  { apply (grouped_count n g); auto.
    - constructor; [intros []|constructor].
    - intros b [<-|[]]. lia.
    - constructor; [intros []|constructor].
    - intros u [<-|[]]. exact Tx. }
  cbn [flat_map length] in Q. rewrite app_nil_r in Q. lia.
Qed.

Lemma bind_cpre n g ps m v1 v2 a :
  Inv n g -> (forall w, tag g w <> 0 -> In w ps) ->
  (forall b, 2 <= b -> b < 16 -> members g b = [] \/ m <= length (members g b)) ->
  length ps <= 16 -> length ps < 2 + m * 14 ->
  tag g v1 <> 0 -> tag g v2 <> 0 -> v1 <> v2 -> room n g v1 a -> cpre n g (OBind v1 v2 a).
Proof.
  intros HI Hps G L16 Lm T1 T2 Hne Hr. pose proof (i_tag HI v1). pose proof (i_tag HI v2).
  cbn [cpre]. repeat split; auto.
  - intros U1 U2. apply (first_empty_some n g ps m [v1; v2]); auto.
    + constructor; [intros [E|[]]; auto|constructor; [intros []|constructor]].
    + intros u [<-|[<-|[]]]; assumption.
  - intros U1 N2. apply (members_room n g ps v1); auto; lia.
  - intros N1 U2. apply (members_room n g ps v2); auto; lia.
Qed.

(** ** one group slot at a time *)

Definition group_ok (g : sodg) (b : nat) : Prop :=
  (forall v, In v (members g b) <-> tag g v = b) /\ NoDup (members g b)
  /\ length (members g b) <= 16 /\ store g b = nstored g (members g b).

Lemma inv_group n g b : Inv n g -> 2 <= b -> b < 16 -> group_ok g b.
Proof.
  intros HI H1 H2. repeat split; [apply (i_mem HI)..|apply (i_nodup HI)|apply (i_len HI)|apply (i_cnt HI)]; assumption.
Qed.

Lemma group_ok_ext g g' b :
  group_ok g b -> members g' b = members g b -> store g' b = store g b ->
  (forall w, tag g' w = b <-> tag g w = b) ->
  (forall w, tag g w = b -> is_stored g' w = is_stored g w) ->
  group_ok g' b.
Proof.
  intros (Gm & Gn & Gl & Gc) M S T Q. unfold group_ok. rewrite M, S. repeat apply conj; auto.
  - intros v. rewrite T. apply Gm.
  - rewrite Gc. symmetry. apply nstored_ext. intros w Hw. apply Q, Gm, Hw.
Qed.

(** preservation when at most the one group slot [t] changes: [Inv] has to
    be re-proved for that slot only.  (A [t] of 16 or more: no slot changes.) *)
Lemma inv_frame n g g' t :
  Inv n g -> same_except_vertices g g' -> 2 <= t ->
  (forall w, tag g' w < 16) ->
  (forall w, NoDup (map fst (edg g' w)) /\ length (edg g' w) <= n) ->
  (forall c, c <> t -> members g' c = members g c) ->
  (forall c, 2 <= c -> c <> t -> store g' c = store g c) ->
  (forall b w, 2 <= b -> b <> t -> (tag g' w = b <-> tag g w = b)) ->
  (forall w, 2 <= tag g w -> tag g w <> t -> is_stored g' w = is_stored g w) ->
  (t < 16 -> group_ok g' t) ->
  Inv n g'.
Proof.
  intros HI [X1 X2 X3 X4] Ht Tg Ed M S T Q Gt.
  assert (G : forall b, 2 <= b -> b < 16 -> group_ok g' b).
  { intros b H1 H2. destruct (Nat.eq_dec b t) as [->|Hb]; [auto|].
    apply (group_ok_ext g); auto using (inv_group n).
    intros w Hw. apply Q; lia. }
  split; try assumption.
  - rewrite X2. apply HI.
  - rewrite X3. apply HI.
  - rewrite M by lia. apply HI.
  - rewrite M by lia. apply HI.
  - rewrite X4, X1. apply HI.
  - intros b v H1 H2. apply (G b H1 H2).
  - intros b H1 H2. apply (G b H1 H2).
  - intros b H1 H2. apply (G b H1 H2).
  - intros b H1 H2. apply (G b H1 H2).
Qed.

Lemma inv_groups_untouched n g g' :
  Inv n g -> same_except_vertices g g' ->
  (forall w, tag g' w < 16) ->
  (forall w, NoDup (map fst (edg g' w)) /\ length (edg g' w) <= n) ->
  (forall c, members g' c = members g c) -> (forall c, 2 <= c -> store g' c = store g c) ->
  (forall b w, 2 <= b -> (tag g' w = b <-> tag g w = b)) ->
  (forall w, 2 <= tag g w -> is_stored g' w = is_stored g w) ->
  Inv n g'.
Proof. intros HI X Tg Ed M S T Q. apply (inv_frame n g g' 16 HI X); auto; lia. Qed.

(** a call that changes only whether [v] holds an unread datum keeps [Inv]
    when it moves the counter of the group of [v] accordingly *)
Lemma inv_prs n g g' v :
  Inv n g -> same_except_vertices g g' ->
  (forall w, tag g' w = tag g w) -> (forall w, w <> v -> prs g' w = prs g w) ->
  (forall w, edg g' w = edg g w) -> (forall c, members g' c = members g c) ->
  (forall c, 2 <= c -> c <> tag g v -> store g' c = store g c) ->
  (2 <= tag g v ->
   store g' (tag g v) + b2n (is_stored g v) = store g (tag g v) + b2n (is_stored g' v)) ->
  Inv n g'.
Proof.
  intros HI X T P E M S St.
  assert (Q : forall w, w <> v -> is_stored g' w = is_stored g w).
  { intros w Hw. apply is_stored_prs, P, Hw. }
  assert (Tg : forall w, tag g' w < 16) by (intros w; rewrite T; apply HI).
  assert (Ed : forall w, NoDup (map fst (edg g' w)) /\ length (edg g' w) <= n).
  { intros w. rewrite E. apply HI. }
  assert (Ti : forall b w, tag g' w = b <-> tag g w = b) by (intros b w; rewrite T; tauto).
  destruct (le_lt_dec 2 (tag g v)) as [H2|H2].
  - apply (inv_frame n g g' (tag g v) HI X); auto.
    intros Ht. destruct (inv_group n g (tag g v) HI H2 Ht) as (Gm & Gn & Gl & Gc).
    unfold group_ok. rewrite M. repeat apply conj; auto.
    + intros w. rewrite Ti. apply Gm.
    + pose proof (nstored_change g g' (members g (tag g v)) v Gn) as C.
      rewrite Gm in C. specialize (C eq_refl Q). specialize (St H2). lia.
  - apply (inv_groups_untouched n g g' HI X); auto.
    + intros c Hc. apply S; lia.
    + intros w Hw. apply Q. intros ->. lia.
Qed.

(** ** add *)

Lemma add_sum n g v :
  Inv n g -> v < cap_of g ->
  exists g', op_add g v = Ok g' /\ Inv n g'
    /\ (forall w, tag g' w = if (w =? v) && (tag g v =? 0) then 1 else tag g w)
    /\ (forall w, prs g' w = if (w =? v) && (tag g v =? 0) then PEmpty else prs g w)
    /\ (forall w, dat g' w = if (w =? v) && (tag g v =? 0) then hex_empty else dat g w)
    /\ (forall w, edg g' w = if (w =? v) && (tag g v =? 0) then [] else edg g w)
    /\ (forall c, members g' c = members g c) /\ (forall c, store g' c = store g c)
    /\ same_except_vertices g g'.
Proof.
  intros HI Hv. destruct (add_effect g v Hv) as (g' & A & T & P & D & E & M & S & X).
  exists g'. split; [exact A|]. split; [|auto 8]. apply (inv_groups_untouched n g g' HI X); auto.
  - intros w. rewrite T. destruct (_ && _); [lia|apply HI].
  - intros w. rewrite E. destruct (_ && _); [split; [constructor|cbn; lia]|apply HI].
  - intros b w Hb. rewrite T.
    destruct (Nat.eqb_spec w v) as [->|]; [|tauto]. destruct (Nat.eqb_spec (tag g v) 0); cbn; lia.
  - intros w Hw. apply is_stored_prs. rewrite P.
    destruct (Nat.eqb_spec w v) as [->|]; [|reflexivity]. destruct (Nat.eqb_spec (tag g v) 0); [lia|reflexivity].
Qed.

(** ** bind *)

(** what [bind] does besides regrouping its two ends, whichever of its four
    cases applies: the edge list of the first end becomes [e].  [bf_store]:
    the counters it moves are those of groups, slots from 2 on (for
    [provenance] below, hence [Wf.w_s0] and [w_s1]).  [bf_members]: a member
    list it changes has two entries or more afterwards (groups never shrink
    below their first two members: [SliceFacts2.grp2]) *)
Record bind_frame (g g' : sodg) (v : nat) (e : edges) : Prop := {
  bf_sev : same_except_vertices g g';
  bf_tag : forall w, tag g' w = 0 <-> tag g w = 0;
  bf_prs : forall w, prs g' w = prs g w;
  bf_dat : forall w, dat g' w = dat g w;
  bf_edg : forall w, edg g' w = if w =? v then e else edg g w;
  bf_store : forall c, c < 2 -> store g' c = store g c;
  bf_members : forall c, members g' c = members g c \/ 2 <= length (members g' c)
}.

(** the regrouping of [bind]: the vertices [xs], ungrouped so far, are
    appended to slot [t], whose counter grows by their unread data *)
Lemma inv_enlist n g g' v e t xs :
  Inv n g -> same_except_vertices g g' -> 2 <= t -> t < 16 ->
  NoDup xs -> (forall x, In x xs -> tag g x = 1) ->
  2 <= length (members g t ++ xs) <= 16 ->
  NoDup (map fst e) /\ length e <= n ->
  (forall w, tag g' w = if mem w xs then t else tag g w) ->
  (forall w, prs g' w = prs g w) -> (forall w, dat g' w = dat g w) ->
  (forall w, edg g' w = if w =? v then e else edg g w) ->
  (forall c, members g' c = if c =? t then members g c ++ xs else members g c) ->
  (forall c, store g' c = if c =? t then store g c + nstored g xs else store g c) ->
  Inv n g' /\ bind_frame g g' v e.
Proof.
  intros HI X Ht1 Ht2 Hnd Hxs Hlen He T P D E M S.
  assert (T1 : forall w, mem w xs = true -> tag g w = 1) by (intros w Hw; apply Hxs, mem_In, Hw).
  destruct (inv_group n g t HI Ht1 Ht2) as (Gm & Gn & _ & Gc). split.
  - apply (inv_frame n g g' t HI X); auto.
    + intros w. rewrite T. destruct (mem w xs); [exact Ht2|apply HI].
    + intros w. rewrite E. destruct (w =? v); [exact He|apply HI].
    + intros c Hc. rewrite M. apply if_miss, Hc.
    + intros c _ Hc. rewrite S. apply if_miss, Hc.
    + intros b w Hb Hbt. rewrite T. destruct (mem w xs) eqn:Hw; [rewrite (T1 w Hw); lia|tauto].
    + intros w _ _. apply is_stored_prs, P.
    + intros _. unfold group_ok. rewrite M, S, Nat.eqb_refl. repeat apply conj.
      * intros w. rewrite T, in_app_iff, Gm, <- mem_In. destruct (mem w xs); intuition congruence.
      * apply nodup_app. repeat split; [exact Gn|exact Hnd|].
        intros w Hw Hw'. apply Gm in Hw. rewrite (Hxs w Hw') in Hw. lia.
      * apply Hlen.
      * rewrite (nstored_ext g g'), nstored_app, Gc by (intros w _; apply is_stored_prs, P). reflexivity.
  - split; auto.
    + intros w. rewrite T. destruct (mem w xs) eqn:Hw; [rewrite (T1 w Hw); lia|tauto].
    + intros c Hc. rewrite S. apply if_miss. lia.
    + intros c. rewrite M. destruct (Nat.eqb_spec c t) as [->|]; [right; apply Hlen|left; reflexivity].
Qed.

(** one ungrouped end [x] joins the group of the other end [y] *)
Lemma inv_join n g g' v e x y :
  Inv n g -> same_except_vertices g g' -> NoDup (map fst e) /\ length e <= n ->
  tag g x = 1 -> 2 <= tag g y -> length (members g (tag g y)) < 16 ->
  (forall w, tag g' w = if w =? x then tag g y else tag g w) ->
  (forall w, prs g' w = prs g w) -> (forall w, dat g' w = dat g w) ->
  (forall w, edg g' w = if w =? v then e else edg g w) ->
  (forall c, members g' c = if c =? tag g y then members g c ++ [x] else members g c) ->
  (forall c, store g' c = if c =? tag g y then store g c + b2n (is_stored g x) else store g c) ->
  Inv n g' /\ bind_frame g g' v e.
Proof.
  intros HI X He Tx Ht1 Hlen T P D E M S.
  assert (Hy : In y (members g (tag g y))) by (apply (i_mem HI); auto; apply HI).
  apply (inv_enlist n g g' v e (tag g y) [x]); auto.
  - apply HI.
  - constructor; [intros []|constructor].
  - intros w [<-|[]]. exact Tx.
  - rewrite app_length. destruct (members g (tag g y)); [destruct Hy|cbn [length] in *; lia].
  - intros w. rewrite T. unfold mem. cbn [existsb]. rewrite orb_false_r. reflexivity.
  - intros c. rewrite S, nstored_one. reflexivity.
Qed.

Lemma first_empty_group n g b :
  Inv n g -> first_empty g = Some b -> 2 <= b /\ b < 16 /\ members g b = [].
Proof.
  intros HI Hf. destruct (first_empty_spec g b Hf) as (H1 & H2 & _).
  rewrite (i_nb HI) in H1. repeat split; auto.
  destruct b as [|[|b]]; try lia.
  - rewrite (i_m0 HI) in H2. discriminate.
  - rewrite (i_m1 HI) in H2. discriminate.
Qed.

(** two ungrouped vertices form a new group in the first empty slot *)
Lemma inv_bind_uu n g v1 v2 a b :
  Inv n g -> tag g v1 = 1 -> tag g v2 = 1 -> v1 <> v2 -> room n g v1 a -> first_empty g = Some b ->
  exists g', op_bind n g v1 v2 a = Ok g' /\ Inv n g'
    /\ bind_frame g g' v1 (spec_insert (edg g v1) a v2).
Proof.
  intros HI T1 T2 Hne Hr Hf.
  destruct (first_empty_group n g b HI Hf) as (Hb1 & Hb2 & Hmb).
  assert (L1 : v1 < cap_of g) by (apply tag_nonzero_lt; lia).
  assert (L2 : v2 < cap_of g) by (apply tag_nonzero_lt; lia).
  destruct (bind_uu n g v1 v2 a b L1 L2 (i_nb HI) (i_ns HI) T1 T2 Hr Hf)
    as (g' & B & T & P & D & E & M & S & X).
  exists g'. split; [exact B|]. apply (inv_enlist n g g' v1 _ b [v1; v2]); auto.
  - constructor; [intros [H|[]]; congruence|]. constructor; [intros []|constructor].
  - intros w [<-|[<-|[]]]; assumption.
  - rewrite Hmb. cbn. lia.
  - apply spec_insert_nodup_length; [apply HI..|exact Hr].
  - intros w. rewrite T. unfold mem. cbn [existsb]. rewrite orb_false_r. reflexivity.
  - intros c. rewrite M. destruct (Nat.eqb_spec c b) as [->|]; [rewrite Hmb|]; reflexivity.
  - intros c. rewrite S. destruct (Nat.eqb_spec c b) as [->|]; [|reflexivity].
    change [v1; v2] with ([v1] ++ [v2]). rewrite nstored_app, !nstored_one. reflexivity.
Qed.

Lemma bind_sum n g v1 v2 a :
  Inv n g -> cpre n g (OBind v1 v2 a) ->
  exists g', op_bind n g v1 v2 a = Ok g' /\ Inv n g'
    /\ bind_frame g g' v1 (spec_insert (edg g v1) a v2).
Proof.
  intros HI (T1 & T2 & Hne & Hr & Huu & Hug & Hgu).
  pose proof (tag_nonzero_lt g v1 T1) as L1. pose proof (tag_nonzero_lt g v2 T2) as L2.
  pose proof (spec_insert_nodup_length n _ a v2 (proj1 (i_edges HI v1)) (proj2 (i_edges HI v1)) Hr) as He.
  destruct (Nat.eq_dec (tag g v1) 1) as [E1|N1], (Nat.eq_dec (tag g v2) 1) as [E2|N2].
  - destruct (Huu E1 E2) as (b & Hf). apply (inv_bind_uu n g v1 v2 a b); assumption.
  - destruct (bind_ug n g v1 v2 a L1 L2 E1 N2 (inv_tag_nb n g v2 HI) (inv_tag_ns n g v2 HI) Hr (Hug E1 N2))
      as (g' & A & T & P & D & E & M & S & X).
    exists g'. split; [exact A|]. apply (inv_join n g g' v1 _ v1 v2); auto. lia.
  - destruct (bind_gu n g v1 v2 a L1 L2 N1 E2 (inv_tag_nb n g v1 HI) (inv_tag_ns n g v1 HI) Hr (Hgu N1 E2))
      as (g' & A & T & P & D & E & M & S & X).
    exists g'. split; [exact A|]. apply (inv_join n g g' v1 _ v2 v1); auto. lia.
  - destruct (bind_gg n g v1 v2 a L1 L2 N1 N2 Hr) as (g' & A & T & P & D & E & M & S & X).
    exists g'. split; [exact A|]. split; [|split; auto; intros w; rewrite T; tauto].
    apply (inv_groups_untouched n g g' HI X); auto.
    + intros w. rewrite T. apply HI.
    + intros w. rewrite E. destruct (w =? v1); [exact He|apply HI].
    + intros b w _. rewrite T. tauto.
    + intros w _. apply is_stored_prs, P.
Qed.

(** ** put *)

Lemma put_sum n g v d :
  Inv n g -> tag g v <> 0 ->
  exists g', op_put g v d = Ok g' /\ Inv n g'
    /\ (forall w, tag g' w = tag g w)
    /\ (forall w, prs g' w = if w =? v then PStored else prs g w)
    /\ (forall w, dat g' w = if w =? v then d else dat g w)
    /\ (forall w, edg g' w = edg g w)
    /\ (forall c, members g' c = members g c)
    /\ (forall c, c < 2 -> store g' c = store g c)
    /\ same_except_vertices g g'.
Proof.
  intros HI Tv. pose proof (tag_nonzero_lt g v Tv) as Lv.
  destruct (put_effect g v d Lv (inv_tag_nb n g v HI) (inv_tag_ns n g v HI))
    as (g' & A & T & P & D & E & M & S & X).
  exists g'. split; [exact A|]. split; [|repeat apply conj; auto].
  - apply (inv_prs n g g' v HI X); auto.
    + intros w Hw. rewrite P. apply if_miss, Hw.
    + intros c _ Hc. rewrite S. apply Nat.eqb_neq in Hc. rewrite Hc. reflexivity.
    + intros Ht. rewrite S, Nat.eqb_refl.
      replace (is_stored g' v) with true by (unfold is_stored; rewrite P, Nat.eqb_refl; reflexivity).
      destruct (Nat.eqb_spec (tag g v) 1); [lia|]. destruct (is_stored g v); cbn; lia.
  - intros c Hc. rewrite S. destruct (Nat.eqb_spec c (tag g v)) as [->|]; [|reflexivity].
    replace (tag g v) with 1 by lia. rewrite andb_false_r. reflexivity.
Qed.

(** ** data *)

(** the read of the last unread datum of a group: the group dies *)
Lemma inv_collect n g v :
  Inv n g -> 2 <= tag g v -> prs g v = PStored -> store g (tag g v) = 1 ->
  exists g', op_data g v = Ok (g', Some (dat g v)) /\ Inv n g' /\ same_except_vertices g g'
    /\ (forall w, dat g' w = dat g w) /\ (forall w, edg g' w = edg g w)
    /\ (forall c, c < 2 -> store g' c = store g c).
Proof.
  intros HI Ht Pv S1. pose proof (i_tag HI v) as Lt. set (t := tag g v) in *.
  destruct (inv_group n g t HI Ht Lt) as (Gm & _).
  assert (Hms : forall m, In m (members g t) -> m < cap_of g).
  { intros m Hm. apply Gm in Hm. apply tag_nonzero_lt. lia. }
  destruct (op_data_stored_last g v) as (g' & A & T & P & D & E & M & S & X); auto;
    [apply tag_nonzero_lt; lia | lia | exact (inv_tag_nb n g v HI) | exact (inv_tag_ns n g v HI) |].
  exists g'. split; [exact A|]. fold t in T, M, S.
  assert (T' : forall w, tag g' w = if tag g w =? t then 0 else tag g w).
  { intros w. rewrite T.
    destruct (Nat.eqb_spec (tag g w) t) as [Hw|Hw].
    - apply Gm, mem_In in Hw. rewrite Hw. reflexivity.
    - rewrite <- Gm, <- mem_false in Hw. rewrite Hw. reflexivity. }
  split; [|repeat apply conj; auto; intros c Hc; rewrite S; apply if_miss; lia].
  apply (inv_frame n g g' t HI X); auto.
  - intros w. rewrite T'. destruct (_ =? _); [lia|apply HI].
  - intros w. rewrite E. apply HI.
  - intros c Hc. rewrite M. apply if_miss, Hc.
  - intros c _ Hc. rewrite S. apply if_miss, Hc.
  - intros b w Hb Hbt. rewrite T'. destruct (Nat.eqb_spec (tag g w) t); [lia|tauto].
  - intros w _ Hw. apply is_stored_prs. rewrite P. apply if_miss. intros ->. apply Hw. reflexivity.
  - intros _. unfold group_ok. rewrite M, S, Nat.eqb_refl. repeat apply conj.
    + intros w. rewrite T'. cbn [In]. destruct (Nat.eqb_spec (tag g w) t); lia.
    + constructor.
    + cbn. lia.
    + reflexivity.
Qed.

Lemma store_pos n g v :
  Inv n g -> 2 <= tag g v -> prs g v = PStored -> 1 <= store g (tag g v).
Proof.
  intros HI Ht Pv. pose proof (i_tag HI v) as Lt.
  rewrite (i_cnt HI (tag g v) Ht Lt).
  destruct (nstored g (members g (tag g v))) eqn:Z; [|lia].
  apply nstored_zero with (w := v) in Z.
  - unfold is_stored in Z. rewrite Pv in Z. discriminate.
  - apply (i_mem HI); auto.
Qed.

Lemma data_sum n g v :
  Inv n g -> tag g v <> 0 ->
  exists g' r, op_data g v = Ok (g', r) /\ Inv n g' /\ same_except_vertices g g'
    /\ (forall w, dat g' w = dat g w) /\ (forall w, edg g' w = edg g w)
    /\ (forall c, c < 2 -> store g' c = store g c).
Proof.
  intros HI Tv. pose proof (tag_nonzero_lt g v Tv) as Lv. pose proof (i_tag HI v) as Lt.
  pose proof (sev_refl g) as X0.
  destruct (prs g v) eqn:Pv.
  - exists g, None. split; [apply op_data_empty; assumption|auto 6].
  - set (g1 := set_prs g v PTaken).
    assert (X1 : same_except_vertices g g1) by apply sev_vtx, X0.
    assert (P1 : forall w, prs g1 w = if w =? v then PTaken else prs g w).
    { intros w. apply prs_set_prs_in, Lv. }
    assert (P1' : forall w, w <> v -> prs g1 w = prs g w) by (intros w Hw; rewrite P1; apply if_miss, Hw).
    destruct (Nat.eq_dec (tag g v) 1) as [E1|N1]; [|destruct (Nat.eq_dec (store g (tag g v)) 1) as [S1|Sn]].
    + exists g1, (Some (dat g v)). split; [apply op_data_stored_static; assumption|].
      split; [|repeat apply conj; auto; intros w; [apply dat_set_prs|apply edg_set_prs]].
      apply (inv_prs n g g1 v HI X1); auto; [intros w; apply tag_set_prs|intros w; apply edg_set_prs|lia].
    + destruct (inv_collect n g v HI) as (g' & A & F); auto; [lia|]. eauto.
    + assert (Ht : 2 <= tag g v) by lia. pose proof (store_pos n g v HI Ht Pv) as Hs.
      pose proof (inv_tag_ns n g v HI) as Hns.
      set (g2 := set_store g1 (tag g v) (store g (tag g v) - 1)).
      assert (X2 : same_except_vertices g g2) by apply sev_store, X1.
      assert (S2 : forall c, store g2 c = if c =? tag g v then store g (tag g v) - 1 else store g c).
      { intros c. unfold g2. rewrite store_set_store. apply if_hit, Hns. }
      exists g2, (Some (dat g v)).
      split; [apply op_data_stored_keep; eauto using inv_tag_nb; lia|].
      split; [|repeat apply conj; auto; intros w; [apply dat_set_prs|apply edg_set_prs|]].
      * apply (inv_prs n g g2 v HI X2); auto.
        -- intros w. apply tag_set_prs.
        -- intros w. apply edg_set_prs.
        -- intros c _ Hc. rewrite S2. apply if_miss, Hc.
        -- intros _. rewrite S2, Nat.eqb_refl. unfold is_stored.
           change (prs g2 v) with (prs g1 v). rewrite P1, Nat.eqb_refl, Pv. cbn. lia.
      * intros Hw. rewrite S2. apply if_miss. lia.
  - exists g, (Some (dat g v)). split; [apply op_data_taken; assumption|auto 6].
Qed.

(** ** next_id, and every call *)

Lemma inv_next n g :
  Inv n g -> cpre n g ONext ->
  exists g' id, op_next_id g = Ok (g', id) /\ Inv n g'.
Proof.
  intros HI Hp. destruct (next_id_effect g Hp) as (id & A & _ & H & _).
  exists (set_next g (S id)), id. split; [exact A|].
  (* [set_next] changes no accessor of the other fields; the new position is bounded by [H] *)
  destruct HI. split; assumption.
Qed.

Theorem step_inv n g o :
  Inv n g -> cpre n g o -> exists g' r, step n g o = Ok (g', r) /\ Inv n g'.
Proof.
  intros HI Hp. destruct o as [v|v1 v2 a|v d|v| |v a|v|]; cbn [step].
  - destruct (add_sum n g v HI Hp) as (g' & A & I' & _). rewrite A. cbn [obind]. eauto.
  - destruct (bind_sum n g v1 v2 a HI Hp) as (g' & A & I' & _). rewrite A. cbn [obind]. eauto.
  - destruct (put_sum n g v d HI Hp) as (g' & A & I' & _). rewrite A. cbn [obind]. eauto.
  - destruct (data_sum n g v HI Hp) as (g' & r & A & I' & _). rewrite A. cbn [obind fst snd]. eauto.
  - destruct (inv_next n g HI Hp) as (g' & id & A & I'). rewrite A. cbn [obind fst snd]. eauto.
  - rewrite op_kid_present by exact Hp. cbn [obind]. eauto.
  - rewrite op_kids_present by exact Hp. cbn [obind]. eauto.
  - eauto.
Qed.

(** where the data and edges after a call come from: each is an old one, the
    empty datum of a new vertex, or the argument of the call; the counters of
    slots 0 and 1 (never a group) do not move *)
Definition provenance (g : sodg) (o : op) (g' : sodg) : Prop :=
  (forall c, c < 2 -> store g' c = store g c)
  /\ (forall v, dat g' v = dat g v \/ dat g' v = hex_empty \/ exists u, o = OPut u (dat g' v))
  /\ (forall v a t, In (a, t) (edg g' v) -> In (a, t) (edg g v) \/ o = OBind v t a).

Lemma provenance_same g o g' :
  (forall c, c < 2 -> store g' c = store g c) -> (forall v, dat g' v = dat g v) ->
  (forall v, edg g' v = edg g v) -> provenance g o g'.
Proof. intros S D E. split; [exact S|]. split; [auto|]. intros v a t. rewrite E. auto. Qed.

Lemma step_provenance n g o g' r :
  Inv n g -> cpre n g o -> step n g o = Ok (g', r) -> provenance g o g'.
Proof.
  intros HI Hp Hs.
  destruct o as [v|v1 v2 a|v d|v| |v a|v|]; cbn [step] in Hs.
  - destruct (add_effect g v Hp) as (g1 & A & _ & _ & D & E & _ & S & _).
    rewrite A in Hs. injection Hs as <- _. split; [auto|]. split.
    + intros w. rewrite D. destruct (_ && _); auto.
    + intros w a t. rewrite E. destruct (_ && _); [intros []|auto].
  - destruct (bind_sum n g v1 v2 a HI Hp) as (g1 & A & _ & F).
    rewrite A in Hs. injection Hs as <- _. split; [exact (bf_store _ _ _ _ F)|].
    split; [left; apply (bf_dat _ _ _ _ F)|].
    intros w x t. rewrite (bf_edg _ _ _ _ F). destruct (Nat.eqb_spec w v1) as [->|]; [|auto].
    intros Hin. destruct (spec_insert_in _ _ _ _ _ Hin) as [Q|[-> ->]]; auto.
  - destruct (put_sum n g v d HI Hp) as (g1 & A & _ & _ & _ & D & E & _ & S & _).
    rewrite A in Hs. injection Hs as <- _. split; [exact S|]. split.
    + intros w. rewrite D. destruct (w =? v); [right; right; exists v; reflexivity|auto].
    + intros w x t. rewrite E. auto.
  - destruct (data_sum n g v HI Hp) as (g1 & r1 & A & _ & _ & D & E & S).
    rewrite A in Hs. injection Hs as <- _. apply provenance_same; assumption.
  - destruct (next_id_effect g Hp) as (id & A & _). rewrite A in Hs.
    injection Hs as <- _. apply provenance_same; reflexivity.
  - destruct (op_kid g v a); cbn [obind] in Hs; try discriminate.
    injection Hs as <- _. apply provenance_same; reflexivity.
  - destruct (op_kids g v); cbn [obind] in Hs; try discriminate.
    injection Hs as <- _. apply provenance_same; reflexivity.
  - injection Hs as <- _. apply provenance_same; reflexivity.
Qed.
