(** * XMergeFacts: the facts of MergeFacts.v about [merge_rec] / [op_merge]
    for the extended [x_merge_rec] / [x_merge] of XJoin.v, on arbitrary
    operands: either graph may have holes, and [join()] may be called any
    number of times.

    Joins act on the left graph only, and the mapping is threaded through
    [x_check_joins] untouched.  So [x_merge_rec] is the same depth-first search
    of the right graph ([dfs_post] on [xg g]; every key added is [walkable]),
    it never runs out of fuel, and the verdict reads as before ([answers])
    under the same hypothesis [hclosed (xg g) right], which cannot be dropped
    ([ex_present_needed]).  Nothing is asked about holes, nor about the left
    graph.  The right graph is [g : xs] throughout, the left graph [x]/[s]. *)

From Sodg Require Export XJoinFacts.

(** what [x_merge_rec] checks of a vertex of the right graph before entering
    it: it is a slot and not a hole *)
Definition walkable (g : xs) (u : nat) : Prop := u < cap_of (xg g) /\ mem u (xh g) = false.

Lemma x_mgo_dfs P h (rec : xs -> nat -> nat -> mapping -> outcome (xs * mapping)) n left :
  (forall x l r m x' m', rec x l r m = Ok (x', m') -> exists ext, dfs_post P h [r] m m' ext) ->
  forall es x m x' m',
    x_mgo rec n left es x m = Ok (x', m') -> exists ext, dfs_post P h (map snd es) m m' ext.
Proof.
  intros HP es. induction es as [|[a to] rest IH]; intros x m x' m' H; cbn [x_mgo] in H.
  - injection H as <- <-. exists []. apply dfs_idle, incl_nil_l.
  - apply obind_ok in H as (k & _ & H).
    apply obind_ok in H as (sm & _ & H).
    apply obind_ok in H as ([x1 m1] & Hrec & H). cbn [fst snd] in H.
    destruct (HP _ _ _ _ _ _ Hrec) as (e1 & D1). destruct (IH _ _ _ _ H) as (e2 & D2).
    exists (e2 ++ e1). exact (dfs_cons _ _ _ _ _ _ _ _ _ D1 D2).
Qed.

(** the joins of the second loop happen after the mapping of the call is
    final: [x_check_joins] neither reads more than [map_get] nor returns a
    mapping, so the mapping returned is the one [x_mgo] produced *)
Lemma x_merge_rec_dfs n g : forall f x left right m x' m',
  x_merge_rec f n g x left right m = Ok (x', m') ->
  exists ext, dfs_post (walkable g) (xg g) [right] m m' ext.
Proof.
  induction f as [|f IHf]; intros x left right m x' m' H; [discriminate|].
  rewrite x_merge_rec_S in H.
  destruct (map_get m right) as [t|] eqn:G.
  - injection H as <- <-. exists []. apply dfs_idle. intros r [<-|[]]. eapply map_get_some_key; eauto.
  - apply map_get_none in G.
    apply obind_ok in H as (u0 & _ & H).
    apply obind_ok in H as (u1 & _ & H).
    apply obind_ok in H as (x1 & _ & H).
    apply obind_ok in H as (es & Hes & H). apply x_kids_ok in Hes as (-> & W).
    apply obind_ok in H as ([x2 m2] & Hgo & H). cbn [fst snd] in H.
    apply obind_ok in H as (x3 & _ & H). injection H as <- <-.
    destruct (x_mgo_dfs _ (xg g) _ n left IHf _ _ _ _ _ Hgo) as (ext & D).
    exists (ext ++ [(right, left)]). apply dfs_node; assumption.
Qed.

(** top-level call *)
Theorem x_merge_rec_top f n g x left right x' m' :
  x_merge_rec f n g x left right [] = Ok (x', m') ->
  (forall u, In u (keys m') <-> reach ptrue (xg g) right u)
  /\ NoDup (keys m') /\ (forall u, In u (keys m') -> walkable g u).
Proof.
  intros H. destruct (x_merge_rec_dfs n g f _ _ _ _ _ _ H) as (ext & D). exact (dfs_top _ _ _ _ _ D).
Qed.

Theorem x_merge_rec_keys f n g x left right x' m' :
  x_merge_rec f n g x left right [] = Ok (x', m') ->
  forall u, In u (keys m') <-> reach ptrue (xg g) right u.
Proof. intros H. apply (x_merge_rec_top _ _ _ _ _ _ _ _ H). Qed.

(** a reachable hole (or a reachable id beyond the capacity) makes the call
    panic, so for a call that returns both are excluded *)
Theorem x_merge_rec_ok_walkable f n g x left right x' m' :
  x_merge_rec f n g x left right [] = Ok (x', m') ->
  forall u, reach ptrue (xg g) right u -> u < cap_of (xg g) /\ mem u (xh g) = false.
Proof.
  intros H u Hu. destruct (x_merge_rec_top _ _ _ _ _ _ _ _ H) as (K & _ & W). apply W, K, Hu.
Qed.

(** ** the fuel *)

Lemma chk_h_fuel hs v : chk_h hs v <> OutOfFuel.
Proof. unfold chk_h. auto with nofuel. Qed.

Lemma xlift_fuel hs o : o <> OutOfFuel -> xlift hs o <> OutOfFuel.
Proof. unfold xlift. auto with nofuel. Qed.

Lemma xlift2_fuel {R} hs (o : outcome (sodg * R)) : o <> OutOfFuel -> xlift2 hs o <> OutOfFuel.
Proof. unfold xlift2. auto with nofuel. Qed.
#[export] Hint Resolve chk_h_fuel xlift_fuel xlift2_fuel : nofuel.

Lemma x_kid_fuel x v a : x_kid x v a <> OutOfFuel.
Proof. unfold x_kid, xa_kid. auto with nofuel. Qed.

Lemma x_kids_fuel x v : x_kids x v <> OutOfFuel.
Proof. unfold x_kids, xa_kids, op_kids. auto with nofuel. Qed.

Lemma x_add_fuel x v : x_add x v <> OutOfFuel.
Proof. unfold x_add, xa_add. auto with nofuel. Qed.

Lemma x_put_fuel x v d : x_put x v d <> OutOfFuel.
Proof. unfold x_put, xa_put. auto with nofuel. Qed.

Lemma x_bind_fuel n x v1 v2 a : x_bind n x v1 v2 a <> OutOfFuel.
Proof. unfold x_bind, xa_bind. auto 6 with nofuel. Qed.

Lemma x_next_id_fuel x : x_next_id x <> OutOfFuel.
Proof. unfold x_next_id, xa_next_id. auto with nofuel. Qed.
#[export] Hint Resolve x_kid_fuel x_kids_fuel x_add_fuel x_put_fuel x_bind_fuel x_next_id_fuel : nofuel.

Lemma x_attach_fuel n x left a k mt : x_attach n x left a k mt <> OutOfFuel.
Proof. unfold x_attach. auto 7 with nofuel. Qed.

Lemma redirect_fuel n left right orig : forall nv, redirect n orig nv left right <> OutOfFuel.
Proof. induction orig as [|[a t] rest IH]; intros nv; cbn [redirect]; auto with nofuel. Qed.

Lemma redirect_all_fuel n left right vs : forall g, redirect_all n g left right vs <> OutOfFuel.
Proof.
  induction vs as [|v t IH]; intros g; cbn [redirect_all]; auto using redirect_fuel with nofuel.
Qed.

Lemma join_kids_fuel n left es : forall x, join_kids n x left es <> OutOfFuel.
Proof. induction es as [|[a t] rest IH]; intros x; cbn [join_kids]; auto 6 with nofuel. Qed.

Lemma x_join_fuel n x left right : x_join n x left right <> OutOfFuel.
Proof. unfold x_join. auto 7 using redirect_all_fuel, join_kids_fuel with nofuel. Qed.

Lemma x_check_joins_fuel n left m es : forall x, x_check_joins n x left m es <> OutOfFuel.
Proof.
  induction es as [|[a to] rest IH]; intros x; cbn [x_check_joins]; auto 7 using x_join_fuel with nofuel.
Qed.

Lemma x_mgo_fuel n g f left :
  (forall x left right m, unseen (cap_of (xg g)) (keys m) < f ->
                          x_merge_rec f n g x left right m <> OutOfFuel) ->
  forall es x m, unseen (cap_of (xg g)) (keys m) < f ->
                 x_mgo (x_merge_rec f n g) n left es x m <> OutOfFuel.
Proof.
  intros HP es. induction es as [|[a to] rest IH]; intros x m Hm; cbn [x_mgo]; [discriminate|].
  apply obind_fuel; [apply x_kid_fuel|].
  intros k _. apply obind_fuel; [apply x_attach_fuel|].
  intros sm _. apply obind_fuel; [apply HP; exact Hm|].
  intros [x1 m1] Hrec. cbn [fst snd]. apply IH.
  destruct (x_merge_rec_dfs n g f _ _ _ _ _ _ Hrec) as (ext & D).
  eapply Nat.le_lt_trans; [|exact Hm]. apply unseen_le. exact (dfs_incl _ _ _ _ _ _ D).
Qed.

(** as for [merge_rec]; joins do not touch the keys *)
Lemma x_merge_rec_fuel n g : forall f x left right m,
  unseen (cap_of (xg g)) (keys m) < f -> x_merge_rec f n g x left right m <> OutOfFuel.
Proof.
  induction f as [|f IHf]; intros x left right m Hm; [lia|].
  rewrite x_merge_rec_S. destruct (map_get m right) eqn:G; [discriminate|].
  apply map_get_none in G.
  apply obind_fuel; [apply chk_h_fuel|].
  intros u0 _. apply obind_fuel; [apply fine_fuel, fine_chk_v|].
  intros [] Hc. apply chk_v_inv in Hc.
  apply obind_fuel; [auto with nofuel|].
  intros x1 _. apply obind_fuel; [apply x_kids_fuel|].
  intros es _. apply obind_fuel.
  { apply x_mgo_fuel; [exact IHf|]. pose proof (unseen_cons _ _ _ Hc G). cbn [keys map fst]. fold (keys m). lia. }
  intros r _. apply obind_fuel; [apply x_check_joins_fuel|discriminate].
Qed.

(** ** the mapping exposed, and [x_merge] as its projection *)

Definition x_merge_mapped (n : nat) (s g : xs) (left right : nat) : outcome (xs * mapping) :=
  x_merge_rec (cap_of (xg g) + 2) n g s left right [].

(** [x_merge] is [x_merge_mapped] followed by the comparison of the number of
    distinct keys with [len()] of the right graph ([verdict] of MergeFacts.v
    on the store of the right graph: the slot of a hole is not counted by
    [keys()] because [x_keys] filters on the tag) *)
Lemma x_merge_projection n s g left right :
  x_merge n s g left right =
  (r <- x_merge_mapped n s g left right ;; Ok (fst r, verdict (xg g) (snd r))).
Proof.
  unfold x_merge, x_merge_mapped, verdict, x_keys.
  destruct (x_merge_rec _ _ _ _ _ _ _) as [[s' m']| | |]; cbn [obind fst snd]; try reflexivity.
  destruct (_ =? _); reflexivity.
Qed.

Lemma x_merge_both n s g left right s' m' r :
  x_merge_mapped n s g left right = Ok (s', m') -> verdict (xg g) m' = r ->
  x_merge n s g left right = Ok (s', r) /\ x_merge_mapped n s g left right = Ok (s', m').
Proof. intros E <-. split; [rewrite x_merge_projection, E; reflexivity|exact E]. Qed.

Lemma x_merge_inv n s g left right s' r :
  x_merge n s g left right = Ok (s', r) ->
  exists m', x_merge_mapped n s g left right = Ok (s', m') /\ r = verdict (xg g) m'.
Proof.
  rewrite x_merge_projection. intros H. apply obind_ok in H as ([s1 m1] & E & H).
  cbn [fst snd] in H. injection H as <- <-. eauto.
Qed.

Lemma x_merge_mapped_nohole n s h left right s' m' :
  op_merge_mapped n s h left right = Ok (s', m') ->
  x_merge_mapped n (mkX s []) (mkX h []) left right = Ok (mkX s' [], m').
Proof. unfold op_merge_mapped, x_merge_mapped. cbn [xg]. apply x_merge_rec_nohole. Qed.

Theorem x_merge_mapped_fuel n s g left right : x_merge_mapped n s g left right <> OutOfFuel.
Proof. unfold x_merge_mapped. apply x_merge_rec_fuel. cbn [keys map]. rewrite unseen_nil. lia. Qed.

Theorem x_merge_fuel n s g left right : x_merge n s g left right <> OutOfFuel.
Proof.
  rewrite x_merge_projection. apply obind_fuel; [apply x_merge_mapped_fuel|discriminate].
Qed.

Theorem x_merge_mapped_keys n s g left right s' m' :
  x_merge_mapped n s g left right = Ok (s', m') ->
  (forall u, In u (keys m') <-> reach ptrue (xg g) right u)
  /\ NoDup (keys m')
  /\ (forall u, In u (keys m') -> u < cap_of (xg g) /\ mem u (xh g) = false).
Proof. apply x_merge_rec_top. Qed.

(** ** the verdict *)

(** in a well-formed right graph a present vertex is not a hole, so under
    [hclosed] no hole is reachable; for a call that returns the same fact
    needs neither hypothesis ([x_merge_rec_ok_walkable]) *)
Lemma hclosed_xwf_no_reachable_hole g right :
  xwf g -> hclosed (xg g) right -> forall u, reach ptrue (xg g) right u -> mem u (xh g) = false.
Proof.
  intros W Hc u Hu. destruct (mem u (xh g)) eqn:E; [|reflexivity]. exfalso.
  destruct (W u E) as [_ B]. apply (proj1 (hclosed_iff_present _ _) Hc u Hu).
  unfold tag. rewrite B. reflexivity.
Qed.

Theorem x_merge_answers n s g left right s' r :
  x_merge n s g left right = Ok (s', r) -> answers (xg g) right r.
Proof.
  intros H. apply x_merge_inv in H as (m' & Hm & ->).
  apply verdict_answers. exact (x_merge_rec_keys _ _ _ _ _ _ _ _ Hm).
Qed.

(** the readings of the answer, as for [op_merge] *)
Theorem x_merge_ok_complete n s g left right s' :
  hclosed (xg g) right -> x_merge n s g left right = Ok (s', None) ->
  forall v, tag (xg g) v <> 0 -> v < cap_of (xg g) -> reach ptrue (xg g) right v.
Proof. intros Hc H. exact (answers_ok_complete _ right (x_merge_answers _ _ _ _ _ _ _ H) Hc). Qed.

(** the same in terms of [keys()] of the right graph *)
Corollary x_merge_ok_complete_keys n s g left right s' :
  hclosed (xg g) right -> x_merge n s g left right = Ok (s', None) ->
  forall v, In v (x_keys g) -> reach ptrue (xg g) right v.
Proof.
  intros Hc H v Hv. unfold x_keys in Hv. apply in_op_keys in Hv as [Hl Ht].
  eapply x_merge_ok_complete; eauto.
Qed.

Theorem x_merge_ok_mapped n s g left right s' :
  hclosed (xg g) right -> x_merge n s g left right = Ok (s', None) ->
  exists m', x_merge_mapped n s g left right = Ok (s', m')
             /\ forall v, tag (xg g) v <> 0 -> map_get m' v <> None.
Proof.
  intros Hc H. pose proof (x_merge_ok_complete _ _ _ _ _ _ Hc H) as Hall.
  apply x_merge_inv in H as (m' & Hm & _). exists m'. split; [exact Hm|].
  exact (all_reached_mapped _ right m' (x_merge_rec_keys _ _ _ _ _ _ _ _ Hm) Hall).
Qed.

Theorem x_merge_err_names_missed n s g left right s' r :
  hclosed (xg g) right -> x_merge n s g left right = Ok (s', r) ->
  (exists v, v < cap_of (xg g) /\ tag (xg g) v <> 0 /\ ~ reach ptrue (xg g) right v) ->
  exists missed,
    r = Some missed
    /\ (forall v, In v missed <->
                  (v < cap_of (xg g) /\ tag (xg g) v <> 0 /\ ~ reach ptrue (xg g) right v))
    /\ StronglySorted lt missed.
Proof. intros Hc H. exact (answers_missed _ right r (x_merge_answers _ _ _ _ _ _ _ H) Hc). Qed.

Theorem x_merge_all_reached_ok n s g left right s' r :
  hclosed (xg g) right -> x_merge n s g left right = Ok (s', r) ->
  (forall v, v < cap_of (xg g) -> tag (xg g) v <> 0 -> reach ptrue (xg g) right v) ->
  r = None.
Proof. intros Hc H. exact (answers_all_reached _ right r (x_merge_answers _ _ _ _ _ _ _ H) Hc). Qed.

(** ** non-vacuity *)

(** *** a merge WITH a join: [ex_left] (0 -a-> 1, 0 -b-> 2, 1 -c-> 3, datum on
    1) and [ex_right] (0 -a-> 5, 0 -b-> 5) of XJoinFacts.v *)

Definition exj_l : xs := mkX ex_left [].
Definition exj_r : xs := mkX ex_right [].

Example exj_hclosed : hclosed (xg exj_r) 0.
Proof. apply hclosedb_hclosed. vm_compute. reflexivity. Qed.

(** the call returns [Ok(())], a join has happened (slot 1 of the left graph
    is a hole), the keys of the table are the two reachable right vertices --
    and the table still sends right vertex 5 to left slot 1, which is the
    hole: [join] does not update [mapped] *)
Example exj_result :
  exists x m',
    x_merge 16 exj_l exj_r 0 0 = Ok (x, None)
    /\ x_merge_mapped 16 exj_l exj_r 0 0 = Ok (x, m')
    /\ xh x = [1]
    /\ m' = [(5, 1); (0, 0)]
    /\ x_keys exj_r = [0; 5]
    /\ is_hole x 1 = true.
Proof.
  do 2 eexists. apply and_assoc. split; [eapply x_merge_both; vm_compute; reflexivity|].
  vm_compute. repeat split.
Qed.

(** [op_merge] gives up on the same operands *)
Example exj_old : op_merge 16 (xg exj_l) (xg exj_r) 0 0 = Unmodelled.
Proof. vm_compute. reflexivity. Qed.

(** what [x_merge_mapped_keys] and [x_merge_ok_complete] conclude of it *)
Example exj_conclusions :
  exists x m',
    x_merge_mapped 16 exj_l exj_r 0 0 = Ok (x, m')
    /\ keys m' = [5; 0]
    /\ (forall u, In u (keys m') <-> reach ptrue (xg exj_r) 0 u)
    /\ NoDup (keys m')
    /\ (forall v, tag (xg exj_r) v <> 0 -> v < cap_of (xg exj_r) -> reach ptrue (xg exj_r) 0 v).
Proof.
  destruct exj_result as (x & m' & H1 & H2 & _ & E & _). exists x, m'.
  split; [exact H2|]. split; [rewrite E; reflexivity|].
  destruct (x_merge_mapped_keys _ _ _ _ _ _ _ H2) as (K1 & K2 & _).
  split; [exact K1|]. split; [exact K2|].
  exact (x_merge_ok_complete _ _ _ _ _ _ exj_hclosed H1).
Qed.

(** *** a join and an unreachable present right vertex (3) *)

Definition exj_r2 : xs :=
  mkX (match op_add ex_right 3 with Ok g => g | _ => op_empty 0 end) [].

Example exj2_hclosed : hclosed (xg exj_r2) 0.
Proof. apply hclosedb_hclosed. vm_compute. reflexivity. Qed.

Example exj2_unreachable_present :
  3 < cap_of (xg exj_r2) /\ tag (xg exj_r2) 3 <> 0 /\ ~ reach ptrue (xg exj_r2) 0 3.
Proof.
  split; [vm_compute; lia|]. split; [vm_compute; discriminate|].
  intros H. apply (reach_in_closed_list ptrue _ 0 [0; 5]) in H; [|vm_compute; reflexivity|left; reflexivity].
  destruct H as [H|[H|[]]]; discriminate.
Qed.

Example exj2_result :
  exists x,
    x_merge 16 exj_l exj_r2 0 0 = Ok (x, Some [3])
    /\ xh x = [1]
    /\ x_keys x = [0; 2; 3].
Proof. vm_compute. eexists. repeat split. Qed.

(** [x_merge_err_names_missed] applied to it: the list named is exactly the
    unreachable present vertices *)
Example exj2_conclusion :
  forall v, In v [3] <->
            (v < cap_of (xg exj_r2) /\ tag (xg exj_r2) v <> 0 /\ ~ reach ptrue (xg exj_r2) 0 v).
Proof.
  destruct exj2_result as (x & H & _).
  destruct (x_merge_err_names_missed _ _ _ _ _ _ _ exj2_hclosed H) as (missed & E & A & _).
  - exists 3. exact exj2_unreachable_present.
  - injection E as <-. exact A.
Qed.

(** *** a RIGHT graph with a hole: the left graph after the join above
    (vertices 0, 2, 3, hole 1) merged into a fresh one-vertex graph *)

Definition exj_holed : xs :=
  match x_merge 16 exj_l exj_r 0 0 with
  | Ok (x, _) => x
  | _ => x_empty 0
  end.

Definition exj_fresh : xs :=
  match x_add (x_empty 6) 0 with Ok x => x | _ => x_empty 0 end.

Example exh_hyps : xh exj_holed = [1] /\ xwf exj_holed /\ hclosed (xg exj_holed) 0.
Proof.
  split; [vm_compute; reflexivity|]. split.
  - intros v Hv. vm_compute in Hv. destruct v as [|[|v]]; try discriminate.
    vm_compute. split; [lia|reflexivity].
  - apply hclosedb_hclosed. vm_compute. reflexivity.
Qed.

Example exh_result :
  exists x m',
    x_merge 16 exj_fresh exj_holed 0 0 = Ok (x, None)
    /\ x_merge_mapped 16 exj_fresh exj_holed 0 0 = Ok (x, m')
    /\ keys m' = [3; 2; 0]
    /\ x_keys x = [0; 1; 2].
Proof.
  do 2 eexists. apply and_assoc. split; [eapply x_merge_both; vm_compute; reflexivity|].
  vm_compute. repeat split.
Qed.

(** handing the hole in as [right] panics, as does [Option::unwrap] on [None] *)
Example exh_hole_root : x_merge 16 exj_fresh exj_holed 0 1 = Panic PUnwrapNone.
Proof. vm_compute. reflexivity. Qed.

(** *** [hclosed] cannot be dropped from [x_merge_ok_complete]: a right graph
    whose root has an edge to an absent (collected, not removed) slot 1, plus
    a present vertex 2 nobody points to.  [merge] walks into slot 1, so it has
    two keys, [len()] is two: it answers [Ok(())] although 2 was never visited *)

Definition exa_right : sodg :=
  set_vtx (set_vtx (op_empty 4)
    0 (mkV 1 hex_empty PEmpty [(Alpha 0, 1)]))
    2 (mkV 1 hex_empty PEmpty []).

Example ex_present_needed :
  (exists x, x_merge 16 exj_fresh (mkX exa_right []) 0 0 = Ok (x, None))
  /\ tag exa_right 2 <> 0 /\ 2 < cap_of exa_right /\ ~ reach ptrue exa_right 0 2
  /\ ~ hclosed exa_right 0.
Proof.
  split; [vm_compute; eexists; reflexivity|].
  split; [vm_compute; discriminate|]. split; [vm_compute; lia|]. split.
  - intros H. apply (reach_in_closed_list ptrue _ 0 [0; 1]) in H; [|vm_compute; reflexivity|left; reflexivity].
    destruct H as [H|[H|[]]]; discriminate.
  - intros [_ Hc]. assert (R : reach ptrue exa_right 0 1).
    { apply (reach_edge ptrue exa_right 0 (Alpha 0) 1); [|reflexivity]. vm_compute. left; reflexivity. }
    destruct (Hc 1 R) as [Ht _]. apply Ht. vm_compute. reflexivity.
Qed.

Print Assumptions x_merge_rec_dfs.
Print Assumptions x_merge_rec_keys.
Print Assumptions x_merge_rec_ok_walkable.
Print Assumptions x_join_fuel.
Print Assumptions x_merge_rec_fuel.
Print Assumptions x_merge_mapped_fuel.
Print Assumptions x_merge_fuel.
Print Assumptions x_merge_projection.
Print Assumptions x_merge_inv.
Print Assumptions x_merge_mapped_nohole.
Print Assumptions hclosed_xwf_no_reachable_hole.
Print Assumptions x_merge_ok_complete.
Print Assumptions x_merge_ok_complete_keys.
Print Assumptions x_merge_ok_mapped.
Print Assumptions x_merge_err_names_missed.
Print Assumptions x_merge_all_reached_ok.
Print Assumptions x_merge_mapped_keys.
Print Assumptions exj_result.
Print Assumptions exj_conclusions.
Print Assumptions exj2_result.
Print Assumptions exj2_conclusion.
Print Assumptions exh_result.
Print Assumptions ex_present_needed.
