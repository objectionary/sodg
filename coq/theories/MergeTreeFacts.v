(** * MergeTreeFacts: [merge] of two trees (C11).

    [h] is the right graph with the tree [T] embedded at [right], [s] the
    left graph with [U] embedded at [left].  Induction on the fuel of
    [merge_rec], which bounds the size of the right subtree of a call.  A
    piece of the run is summarised by [gpost]; [gpost_weaken], [gpost_after]
    and [gpost_comp] weaken a summary, put a step of the left graph in front
    and put two in sequence.  The iterations of the loop over the kids of a
    right vertex are a piece ([lpost], with the loop invariant [linv]), and
    so is the call ([cpost]).  [merge_trees] is the top-level call; what C11
    claims is read off its summary in the section Consequences. *)

From Sodg Require Export TreeFacts.

Lemma tsize_kids_app ks1 ks2 : tsize_kids (ks1 ++ ks2) = tsize_kids ks1 + tsize_kids ks2.
Proof. induction ks1 as [|p r IH]; cbn [tsize_kids app]; [reflexivity|]. rewrite IH. lia. Qed.

(** the conditional [put] at the start of a call of [merge_rec] *)
Lemma put_if n s v (b : bool) d :
  Inv n s -> tag s v <> 0 ->
  exists s1, (if b then op_put s v d else Ok s) = Ok s1
    /\ Inv n s1 /\ cap_of s1 = cap_of s /\ g_next s1 = g_next s
    /\ (forall w, tag s1 w = tag s w) /\ (forall w, edg s1 w = edg s w)
    /\ (forall w, dat s1 w = if (w =? v) && b then d else dat s w)
    /\ (forall w, prs s1 w = if (w =? v) && b then PStored else prs s w).
Proof.
  intros HI Tv. destruct b.
  - destruct (put_sum n s v d HI Tv) as (s1 & A & I1 & T1 & P1 & D1 & E1 & _ & _ & X).
    exists s1. split; [exact A|]. split; [exact I1|].
    split; [exact (se_cap _ _ X)|]. split; [exact (se_next _ _ X)|].
    split; [exact T1|]. split; [exact E1|]. split; intros w; rewrite andb_true_r; auto.
  - exists s. split; [reflexivity|]. split; [exact HI|]. do 4 (split; [reflexivity|]).
    split; intros w; rewrite andb_false_r; reflexivity.
Qed.

Section TreeMerge.
Variable n : nat.
Variable h : sodg.
(** [D] bounds the out-degree of the right tree: so many labels may have to
    be added at a vertex of the left tree *)
Variable D : nat.
Hypothesis Hh : Inv n h.
Hypothesis HD : D <= n.

(** ** the summary of a piece of the run: [s] before, [s'] after, [ext] the
    entries added to the mapping.  [R] is the part of the old left graph the
    piece was allowed to work on, [K] the right vertices it had to map, [E]
    the vertices exempt from the edge frame.  [k'] and [c'] account for the
    limits [bind] and [next_id] must stay within: at most [k'] vertices are
    present afterwards ([bound]; 16 fill a group) and at least [c'] absent ids
    remain for the allocator ([free]). *)
(* implicit arguments of the fields as for [mono] (TreeFacts.v): [gp_mono G], [gp_frame G P H] *)
Set Implicit Arguments. Unset Strict Implicit.
Record gpost (R : nat -> Prop) (K : list nat) (E : nat -> Prop) (s s' : sodg)
  (ext : mapping) (k' c' : nat) : Prop := {
  gp_inv : Inv n s';
  gp_mono : mono s s';
  gp_keys : forall x, In x (keys ext) <-> In x K;
  gp_img : forall u v, map_get ext u = Some v ->
                       tag s' v <> 0 /\ (R v \/ (tag s v = 0 /\ g_next s <= v));
  gp_inj : forall u1 u2 v, map_get ext u1 = Some v -> map_get ext u2 = Some v -> u1 = u2;
  gp_new : forall v, tag s v = 0 -> tag s' v <> 0 ->
                     g_next s <= v /\ exists u, map_get ext u = Some v;
  gp_frame : forall v, tag s v <> 0 -> (forall u, map_get ext u <> Some v) ->
                       dat s' v = dat s v /\ prs s' v = prs s v /\ (~ E v -> edg s' v = edg s v);
  gp_data : forall u l, map_get ext u = Some l -> has_data h u = true ->
                        dat s' l = dat h u /\ prs s' l = PStored;
  gp_nodata : forall u l, map_get ext u = Some l -> has_data h u = false -> tag s l <> 0 ->
                          dat s' l = dat s l /\ prs s' l = prs s l;
  gp_bound : bound s' k';
  gp_free : free s' c'
}.

(** the mapped right vertices have their edges mirrored; this holds of a
    call and of an iteration of its loop, not of the step that opens a call *)
Definition hom (s' : sodg) (ext : mapping) : Prop :=
  forall u l a w, map_get ext u = Some l -> In (a, w) (edg h u) ->
                  exists x, mm_get (edg s' l) a = Some x /\ map_get ext w = Some x.

(** the vertices of the kid subtrees of [left] whose label is one of [ks] *)
Definition region (us ks : list (label * tree)) (v : nat) : Prop :=
  exists b w, In (b, w) us /\ In b (map fst ks) /\ In v (ids w).

Record lpost (left : nat) (us ks : list (label * tree)) (s s' : sodg)
  (ext : mapping) (k' c' : nat) : Prop := {
  lp_g : gpost (region us ks) (ids_kids ks) (eq left) s s' ext k' c';
  lp_hom : hom s' ext;
  lp_left : forall b, ~ In b (map fst ks) -> mm_get (edg s' left) b = mm_get (edg s left) b;
  lp_len : length (edg s' left) <= length (edg s left) + length ks;
  lp_kids : forall b t, In (b, t) ks ->
                        exists x, mm_get (edg s' left) b = Some x /\ map_get ext (root t) = Some x
}.

Record cpost (left : nat) (U T : tree) (s s' : sodg) (ext : mapping) (k' c' : nat) : Prop := {
  cp_g : gpost (fun v => In v (ids U)) (ids T) (fun _ => False) s s' ext k' c';
  cp_hom : hom s' ext;
  cp_root : map_get ext (root T) = Some left
}.
Set Strict Implicit. Unset Implicit Arguments.

Lemma gpost_weaken {R R' : nat -> Prop} {K} {E E' : nat -> Prop} {s s' ext k k' c c'} :
  (forall v, R v -> R' v) ->
  (forall v, E v -> E' v \/ exists u, map_get ext u = Some v) ->
  k <= k' -> c' <= c ->
  gpost R K E s s' ext k c -> gpost R' K E' s s' ext k' c'.
Proof.
  intros HR HE Hk Hc [I M Ky Im Inj Nw Fr Da Nda B F]. split; try assumption.
  - intros u v H. destruct (Im u v H) as [P [Q|Q]]; auto.
  - intros v P Hno. destruct (Fr v P Hno) as (A1 & A2 & A3). split; [exact A1|]. split; [exact A2|].
    intros NE. apply A3. intros Ev. destruct (HE v Ev) as [Ev'|[u Hu]]; [exact (NE Ev')|exact (Hno u Hu)].
  - exact (bound_le _ _ _ B Hk).
  - exact (free_le _ _ _ F Hc).
Qed.

Lemma gpost_outside {R : nat -> Prop} {K} {E : nat -> Prop} {s s' ext k c} :
  gpost R K E s s' ext k c -> forall v, tag s v <> 0 -> ~ R v ->
  dat s' v = dat s v /\ prs s' v = prs s v /\ (~ E v -> edg s' v = edg s v).
Proof.
  intros G v P Hout. apply (gp_frame G P). intros u Hu.
  destruct (gp_img G Hu) as [_ [Q|[Q _]]]; contradiction.
Qed.

(** a step [s -> s0] in front of a piece: it keeps the old vertices' data,
    and edges outside [E]; the piece maps the vertices it adds *)
Lemma gpost_after {R0 R : nat -> Prop} {K} {E : nat -> Prop} {s s0 s' ext k c} :
  mono s s0 ->
  (forall v, tag s v <> 0 ->
             dat s0 v = dat s v /\ prs s0 v = prs s v /\ (~ E v -> edg s0 v = edg s v)) ->
  (forall v, tag s v = 0 -> tag s0 v <> 0 -> g_next s <= v /\ exists u, map_get ext u = Some v) ->
  (forall v, R0 v -> R v \/ (tag s v = 0 /\ g_next s <= v)) ->
  gpost R0 K E s0 s' ext k c -> gpost R K E s s' ext k c.
Proof.
  intros M0 Old New HR [I M Ky Im Inj Nw Fr Da Nda B F].
  pose proof (mo_next M0) as Hn. split; try assumption.
  - exact (mono_trans _ _ _ M0 M).
  - intros u v H. destruct (Im u v H) as [P [Q|[Z Hg]]]; (split; [exact P|]); [exact (HR v Q)|].
    right. split; [exact (mono_absent M0 v Z)|lia].
  - intros v Z P. destruct (Nat.eq_dec (tag s0 v) 0) as [Z0|P0]; [|exact (New v Z P0)].
    destruct (Nw v Z0 P) as [Hg Hu]. split; [lia|exact Hu].
  - intros v P Hno. destruct (Old v P) as (A1 & A2 & A3).
    destruct (Fr v (mo_tag M0 P) Hno) as (C1 & C2 & C3).
    split; [congruence|]. split; [congruence|]. intros NE. rewrite (C3 NE). exact (A3 NE).
  - intros u l H Hd Pl. destruct (Nda u l H Hd (mo_tag M0 Pl)) as [A1 A2].
    destruct (Old l Pl) as (C1 & C2 & _). split; congruence.
Qed.

(** two pieces in sequence, working on disjoint parts of the old left graph *)
Lemma gpost_comp {R1 R2 : nat -> Prop} {K1 K2} {E : nat -> Prop} {s s1 s' ext1 ext2 k1 c1 k' c'} :
  (forall v, R2 v -> tag s v <> 0 /\ ~ R1 v) ->
  (forall x, In x (keys ext1) -> ~ In x (keys ext2)) ->
  gpost R1 K1 E s s1 ext1 k1 c1 -> gpost R2 K2 E s1 s' ext2 k' c' ->
  gpost (fun v => R1 v \/ R2 v) (K1 ++ K2) E s s' (ext2 ++ ext1) k' c'.
Proof.
  intros HR KD [I1 M1 Ky1 Im1 In1 Nw1 Fr1 Da1 Nda1 B1 F1]
               [I2 M2 Ky2 Im2 In2 Nw2 Fr2 Da2 Nda2 B2 F2].
  pose proof (map_get_app_disj ext2 ext1 KD) as Old. pose proof (mo_next M1) as Hn.
  (* the images of the two pieces are disjoint *)
  assert (X : forall u1 u2 v, map_get ext1 u1 = Some v -> map_get ext2 u2 = Some v -> False).
  { intros u1 u2 v H1 H2. destruct (Im1 _ _ H1) as [P1 Q1].
    destruct (Im2 _ _ H2) as [_ [Q2|[Z _]]]; [|contradiction].
    destruct (HR v Q2) as [Pv N1]. destruct Q1 as [Q1|[Z _]]; contradiction. }
  split.
  - exact I2.
  - exact (mono_trans _ _ _ M1 M2).
  - intros x. rewrite keys_app, !in_app_iff, Ky1, Ky2. tauto.
  - intros u v H. apply map_get_app_cases in H as [H|[_ H]].
    + destruct (Im2 _ _ H) as [P [Q|[Z Hg]]]; (split; [exact P|]); [left; right; exact Q|].
      right. split; [exact (mono_absent M1 v Z)|lia].
    + destruct (Im1 _ _ H) as [P Q]. split; [exact (mo_tag M2 P)|tauto].
  - intros u1 u2 v H1 H2.
    apply map_get_app_cases in H1 as [H1|[_ H1]]; apply map_get_app_cases in H2 as [H2|[_ H2]].
    + eapply In2; eauto.
    + exfalso. eapply X; eauto.
    + exfalso. eapply X; eauto.
    + eapply In1; eauto.
  - intros v Z P. destruct (Nat.eq_dec (tag s1 v) 0) as [Z1|P1].
    + destruct (Nw2 v Z1 P) as (Hg & u & Hu). split; [lia|]. exists u. apply map_get_app_l. exact Hu.
    + destruct (Nw1 v Z P1) as (Hg & u & Hu). split; [exact Hg|]. exists u. apply Old. exact Hu.
  - intros v P Hno.
    destruct (Fr1 v P) as (A1 & A2 & A3); [intros u Hu; exact (Hno u (Old u v Hu))|].
    destruct (Fr2 v (mo_tag M1 P)) as (C1 & C2 & C3);
      [intros u Hu; exact (Hno u (map_get_app_l _ _ _ _ Hu))|].
    split; [congruence|]. split; [congruence|]. intros NE. rewrite (C3 NE). exact (A3 NE).
  - intros u l H Hd. apply map_get_app_cases in H as [H|[_ H]]; [eapply Da2; eauto|].
    destruct (Da1 _ _ H Hd) as [A1 A2].
    destruct (Fr2 l) as (C1 & C2 & _); [apply (Im1 _ _ H)|intros u2 Hu2; eapply X; eauto|].
    split; congruence.
  - intros u l H Hd Pl. apply map_get_app_cases in H as [H|[_ H]].
    + destruct (Nda2 _ _ H Hd (mo_tag M1 Pl)) as [A1 A2].
      destruct (Fr1 l Pl) as (C1 & C2 & _); [intros u1 Hu1; eapply X; eauto|]. split; congruence.
    + destruct (Nda1 _ _ H Hd Pl) as [A1 A2].
      destruct (Fr2 l) as (C1 & C2 & _); [apply (Im1 _ _ H)|intros u2 Hu2; eapply X; eauto|].
      split; congruence.
  - exact B2.
  - exact F2.
Qed.

(** [hom] of an extended mapping: the new entries may use all of it *)
Lemma hom_app s' ext1 ext2 :
  hom s' ext2 ->
  (forall u l a w, map_get ext1 u = Some l -> In (a, w) (edg h u) ->
                   exists x, mm_get (edg s' l) a = Some x /\ map_get (ext2 ++ ext1) w = Some x) ->
  hom s' (ext2 ++ ext1).
Proof.
  intros H2 H1 u l a w H Hin. apply map_get_app_cases in H as [H|[_ H]]; [|eauto].
  destruct (H2 _ _ _ _ H Hin) as (x & A & B). exists x. split; [exact A|]. apply map_get_app_l. exact B.
Qed.

Lemma region_in us ks v : region us ks v -> In v (ids_kids us).
Proof. intros (b & w & Hb & _ & Hv). eapply ids_kids_in; eauto. Qed.

Lemma lpost_nil left us s k c :
  Inv n s -> bound s k -> free s c -> lpost left us [] s s [] k c.
Proof.
  intros HI HB HF. split; [split; auto|..].
  - apply mono_refl.
  - intros x. cbn. tauto.
  - intros u v H. discriminate.
  - intros u1 u2 v H. discriminate.
  - intros v H1 H2. contradiction.
  - intros u l H. discriminate.
  - intros u l a w H. discriminate.
  - reflexivity.
  - cbn [length]. lia.
  - intros b t [].
Qed.

Lemma lpost_one {left us a t s s' ext k c} x :
  gpost (region us [(a, t)]) (ids t) (eq left) s s' ext k c -> hom s' ext ->
  map_get ext (root t) = Some x -> mm_get (edg s' left) a = Some x ->
  (forall b, a <> b -> mm_get (edg s' left) b = mm_get (edg s left) b) ->
  length (edg s' left) <= S (length (edg s left)) ->
  lpost left us [(a, t)] s s' ext k c.
Proof.
  intros G Ho Rt Hx Hb Hl. split.
  - cbn [ids_kids snd]. rewrite app_nil_r. exact G.
  - exact Ho.
  - intros b Nb. apply Hb. intros <-. apply Nb. left; reflexivity.
  - cbn [length]. lia.
  - intros b t' [E|[]]. injection E as <- <-. eauto.
Qed.

Definition call_ok (f : nat) : Prop :=
  forall s left T U m k c,
    Inv n s -> emb h T -> NoDup (ids T) -> (forall x, In x (ids T) -> ~ In x (keys m)) ->
    tsize T <= f -> maxdeg T <= D ->
    emb s U -> NoDup (ids U) -> root U = left ->
    (forall v, In v (ids U) -> length (edg s v) + D <= n) ->
    bound s k -> k + tsize_kids (kids T) <= 15 -> free s (c + tsize_kids (kids T)) ->
    exists s' ext,
      merge_rec f n h s left (root T) m = Ok (s', ext ++ m)
      /\ cpost left U T s s' ext (k + tsize_kids (kids T)) c.

(** the invariant of the loop of the call on [left] (kids [us] in the old
    graph) when the kids [ks] of the right vertex remain: none of [ks] is
    mapped, and a kid of [left] under a label of [ks] is the root of a
    subtree of [us] that has not been worked on *)
Set Implicit Arguments. Unset Strict Implicit.
Record linv (f left : nat) (us ks : list (label * tree)) (s : sodg) (m : mapping) (k c : nat)
  : Prop := {
  li_inv : Inv n s;
  li_left : tag s left <> 0;
  li_right : forall a t, In (a, t) ks -> emb h t /\ tsize t <= f /\ maxdeg t <= D;
  li_ids : NoDup (ids_kids ks);
  li_lab : NoDup (map fst ks);
  li_unmapped : forall x, In x (ids_kids ks) -> ~ In x (keys m);
  li_us : NoDup (left :: ids_kids us);
  li_pres : forall v, In v (ids_kids us) -> tag s v <> 0;
  li_kid : forall a x, In a (map fst ks) -> mm_get (edg s left) a = Some x ->
             exists u, In (a, u) us /\ root u = x /\ emb s u
                       /\ forall v, In v (ids u) -> length (edg s v) + D <= n;
  li_len : length (edg s left) + length ks <= n;
  li_bound : bound s k;
  li_k : k + tsize_kids ks <= 15;
  li_free : free s (c + tsize_kids ks)
}.
Set Strict Implicit. Unset Implicit Arguments.

Lemma lpost_comp {f left us ks1 ks2 s m k c s1 s' ext1 ext2 k1 c1 k' c'} :
  linv f left us (ks1 ++ ks2) s m k c ->
  lpost left us ks1 s s1 ext1 k1 c1 -> lpost left us ks2 s1 s' ext2 k' c' ->
  lpost left us (ks1 ++ ks2) s s' (ext2 ++ ext1) k' c'.
Proof.
  intros LI [G1 H1 L1 N1 K1] [G2 H2 L2 N2 K2].
  pose proof (li_us LI) as Hnd. pose proof (li_lab LI) as Hlab. pose proof (li_ids LI) as Hids.
  rewrite map_app in Hlab. rewrite ids_kids_app in Hids.
  apply nodup_app in Hlab as (_ & _ & Hlab3).
  apply nodup_app in Hids as (_ & _ & Hids3).
  inversion Hnd as [|? ? _ Hnd_us]; subst.
  assert (KD : forall x, In x (keys ext1) -> ~ In x (keys ext2)).
  { intros x A B. apply (gp_keys G1) in A. apply (gp_keys G2) in B. exact (Hids3 x A B). }
  pose proof (map_get_app_disj ext2 ext1 KD) as Old. pose proof (gp_mono G2) as M2.
  split.
  - rewrite ids_kids_app.
    refine (gpost_weaken _ _ (Nat.le_refl _) (Nat.le_refl _) (gpost_comp _ KD G1 G2)).
    + intros v [(b & w & Hb & Hk & Hv)|(b & w & Hb & Hk & Hv)]; exists b, w;
        rewrite map_app, in_app_iff; auto.
    + auto.
    + (* kids of [left] with different labels are disjoint subtrees *)
      intros v (b2 & w2 & Hb2 & Hk2 & Hv2). split; [apply (li_pres LI); eapply ids_kids_in; eauto|].
      intros (b1 & w1 & Hb1 & Hk1 & Hv1).
      assert (Hne : b1 <> b2) by (intros ->; exact (Hlab3 b2 Hk1 Hk2)).
      exact (ids_kids_disjoint us b1 w1 b2 w2 Hnd_us Hb1 Hb2 Hne v Hv1 Hv2).
  - apply hom_app; [exact H2|]. intros u l a w H Hin.
    destruct (H1 _ _ _ _ H Hin) as (x & Hx1 & Hx2). exists x. split; [|exact (Old _ _ Hx2)].
    apply (mo_keep M2); [apply (gp_img G1 H)|exact Hx1].
  - intros b Hb. rewrite map_app, in_app_iff in Hb. rewrite L2, L1; auto.
  - rewrite app_length. lia.
  - intros b t Hin. apply in_app_iff in Hin as [Hin|Hin].
    + destruct (K1 b t Hin) as (x & Hx1 & Hx2). exists x. split; [|exact (Old _ _ Hx2)].
      apply (mo_keep M2); [exact (mo_tag (gp_mono G1) (li_left LI))|exact Hx1].
    + destruct (K2 b t Hin) as (x & Hx1 & Hx2). exists x. split; [exact Hx1|].
      apply map_get_app_l. exact Hx2.
Qed.

(** an iteration is a call on the subtree [u] of the kid it finds ... *)
Lemma lpost_found {left us a t u x s s' ext k k' c c'} :
  tag s left <> 0 -> ~ In left (ids_kids us) -> In (a, u) us -> mm_get (edg s left) a = Some x ->
  k <= k' -> c' <= c ->
  cpost x u t s s' ext k c -> lpost left us [(a, t)] s s' ext k' c'.
Proof.
  intros Tl Hl Hu G Hk Hc [Gp Ho Rt].
  destruct (gpost_outside Gp left Tl) as (_ & _ & EL).
  { intros Q. apply Hl. eapply ids_kids_in; eauto. }
  specialize (EL (fun x => x)).
  apply (lpost_one x); [|exact Ho|exact Rt|rewrite EL; exact G|intros b _; rewrite EL; reflexivity|rewrite EL; lia].
  refine (gpost_weaken _ _ Hk Hc Gp); [|intros _ []].
  intros v Hv. exists a, u. split; [exact Hu|]. split; [left; reflexivity|exact Hv].
Qed.

(** ... or a graft followed by a call on the new leaf *)
Lemma lpost_graft {left us a t id s s0 s' ext k0 c0 k k' c c'} :
  tag s left <> 0 -> mm_get (edg s left) a = None -> grafted n s left a s0 id k0 c0 ->
  k <= k' -> c' <= c ->
  cpost id (Node id []) t s0 s' ext k c -> lpost left us [(a, t)] s s' ext k' c'.
Proof.
  intros Tl G GR Hk Hc [Gp Ho Rt]. pose proof (grafted_mono GR G) as M0.
  destruct (gpost_outside Gp left (mo_tag M0 Tl)) as (_ & _ & EL).
  { intros [Q|[]]. destruct (gr_id GR). congruence. }
  specialize (EL (fun x => x)). rewrite (gr_left GR) in EL.
  apply (lpost_one id); [|exact Ho|exact Rt| | |].
  - refine (gpost_after (R0 := eq id) M0 (gr_old GR) _ _ _).
    + intros v Z P. apply (gr_tag GR) in P as [->|P]; [|contradiction].
      split; [exact (proj2 (gr_id GR))|]. exists (root t). exact Rt.
    + intros v <-. right. exact (gr_id GR).
    + refine (gpost_weaken _ _ Hk Hc Gp); [|intros _ []]. intros v [Q|[]]. exact Q.
  - rewrite EL, (mm_get_app_fresh _ _ _ _ G), label_eqb_refl. reflexivity.
  - intros b Nb. rewrite EL, (mm_get_app_fresh _ _ _ _ G).
    destruct (label_eqb a b) eqn:Eab; [|reflexivity]. apply label_eqb_spec in Eab. contradiction.
  - rewrite EL, app_length. cbn [length]. lia.
Qed.

(** one iteration: find or graft the kid, then recurse *)
Lemma head_ok f :
  call_ok f ->
  forall s m left us a t rest k c,
    linv f left us ((a, t) :: rest) s m k c ->
    exists s0 x s' ext,
      attach n s left a (mm_get (edg s left) a) (map_get m (root t)) = Ok (s0, x)
      /\ merge_rec f n h s0 x (root t) m = Ok (s', ext ++ m)
      /\ lpost left us [(a, t)] s s' ext (k + tsize t) (c + tsize_kids rest).
Proof.
  intros HC s m left us a t rest k c [HI Tl Rk Nids _ Dm Hnd Hus HK Hlen HB Hk HF].
  cbn [tsize_kids ids_kids snd map fst length] in *.
  destruct (Rk a t (or_introl eq_refl)) as (Et & St & Mt).
  apply nodup_app in Nids as (Nt & _ & _).
  assert (Dt : forall x, In x (ids t) -> ~ In x (keys m)).
  { intros x Hx. apply Dm, in_app_iff. left; exact Hx. }
  inversion Hnd as [|? ? Hl_us Hnd_us]; subst.
  pose proof (tsize_kids_eq t) as TS.
  destruct (mm_get (edg s left) a) as [x|] eqn:G.
  - destruct (HK a x (or_introl eq_refl) G) as (u & Hu & Hr & Eu & Ru).
    assert (Nu : NoDup (ids u)) by (eapply ids_kids_nodup_in; eauto).
    destruct (HC s x t u m k (c + tsize_kids rest + 1) HI Et Nt Dt St Mt Eu Nu Hr Ru HB)
      as (s' & ext & Hrec & CP).
    { lia. }
    { eapply free_le; [exact HF|lia]. }
    exists s, x, s', ext. split; [reflexivity|]. split; [exact Hrec|].
    apply (lpost_found Tl Hl_us Hu G) with (3 := CP); lia.
  - assert (Gm : map_get m (root t) = None) by (apply map_get_none; apply Dt; apply root_in_ids).
    rewrite Gm.
    destruct (attach_fresh n s left a k (c + tsize_kids rest + tsize_kids (kids t)) HI Tl G)
      as (s0 & id & Hat & GR).
    { lia. }
    { exact HB. }
    { lia. }
    { eapply free_le; [exact HF|lia]. }
    destruct (HC s0 id t (Node id []) m (S k) (c + tsize_kids rest) (gr_inv GR) Et Nt Dt St Mt)
      as (s' & ext & Hrec & CP).
    { apply emb_node. split; [apply (gr_tag GR); left; reflexivity|].
      split; [exact (gr_leaf GR)|]. intros ? ? []. }
    { constructor; [intros []|constructor]. }
    { reflexivity. }
    { intros v [<-|[]]. rewrite (gr_leaf GR). cbn [length]. lia. }
    { exact (gr_bound GR). }
    { lia. }
    { exact (gr_free GR). }
    exists s0, id, s', ext. split; [exact Hat|]. split; [exact Hrec|].
    apply (lpost_graft Tl G GR) with (3 := CP); lia.
Qed.

Lemma linv_step {f left us a t rest s s1 m ext1 k c} :
  linv f left us ((a, t) :: rest) s m k c ->
  lpost left us [(a, t)] s s1 ext1 (k + tsize t) (c + tsize_kids rest) ->
  linv f left us rest s1 (ext1 ++ m) (k + tsize t) c.
Proof.
  intros [HI Tl Rk Nids Nlab Dm Hnd Hus HK Hlen HB Hk HF] LP1.
  cbn [tsize_kids ids_kids snd map fst length] in *.
  pose proof (lp_g LP1) as G1. pose proof (gp_mono G1) as M1.
  inversion Nlab as [|? ? Na Nlab']; subst.
  apply nodup_app in Nids as (_ & Nrest & Ndis).
  inversion Hnd as [|? ? Hl_us Hnd_us]; subst.
  split.
  - exact (gp_inv G1).
  - exact (mo_tag M1 Tl).
  - intros b u Hin. apply (Rk b u). right; exact Hin.
  - exact Nrest.
  - exact Nlab'.
  - intros x Hx. rewrite keys_app. intros Hin. apply in_app_iff in Hin as [Hin|Hin].
    + apply (gp_keys G1) in Hin. cbn [ids_kids snd] in Hin. rewrite app_nil_r in Hin.
      exact (Ndis x Hin Hx).
    + apply (Dm x); [apply in_app_iff; right; exact Hx|exact Hin].
  - exact Hnd.
  - intros v Hv. apply (mo_tag M1). apply Hus. exact Hv.
  - (* the subtrees of [us] under the other labels lie outside the region of the iteration *)
    intros b x Hb Hg. assert (Hne : a <> b) by (intros ->; contradiction).
    rewrite (lp_left LP1) in Hg by (intros [E|[]]; contradiction).
    destruct (HK b x (or_intror Hb) Hg) as (u & Hu & Hr & Eu & Ru).
    exists u. split; [exact Hu|]. split; [exact Hr|].
    assert (Q : forall v, In v (ids u) -> tag s1 v <> 0 /\ edg s1 v = edg s v).
    { intros v Hv.
      assert (Pv : tag s v <> 0) by (apply Hus; eapply ids_kids_in; eauto).
      split; [exact (mo_tag M1 Pv)|].
      destruct (gpost_outside G1 v Pv) as (_ & _ & A3).
      - intros (b' & w' & Hb' & [E|[]] & Hv'). cbn [fst] in E. subst b'.
        exact (ids_kids_disjoint us a w' b u Hnd_us Hb' Hu Hne v Hv' Hv).
      - apply A3. intros ->. apply Hl_us. eapply ids_kids_in; eauto. }
    split.
    + eapply emb_frame; [exact Eu|exact Q].
    + intros v Hv. destruct (Q v Hv) as [_ ->]. apply Ru. exact Hv.
  - pose proof (lp_len LP1) as N1. cbn [length] in N1. lia.
  - exact (gp_bound G1).
  - lia.
  - exact (gp_free G1).
Qed.

Lemma loop_ok f :
  call_ok f ->
  forall ks s m left us k c,
    linv f left us ks s m k c ->
    exists s' ext,
      mgo (merge_rec f n h) n left (kid_edges ks) s m = Ok (s', ext ++ m)
      /\ lpost left us ks s s' ext (k + tsize_kids ks) c.
Proof.
  intros HC ks. induction ks as [|[a t] rest IH]; intros s m left us k c LI.
  - exists s, []. split; [reflexivity|]. apply lpost_nil; [exact (li_inv LI)| |].
    + eapply bound_le; [exact (li_bound LI)|lia].
    + eapply free_le; [exact (li_free LI)|lia].
  - destruct (head_ok f HC s m left us a t rest k c LI) as (s0 & x & s1 & ext1 & Hat & Hrec & LP1).
    destruct (IH s1 (ext1 ++ m) left us (k + tsize t) c (linv_step LI LP1))
      as (s' & ext2 & Hgo & LP2).
    exists s', (ext2 ++ ext1). split.
    + unfold kid_edges. cbn [map fst snd mgo]. fold (kid_edges rest).
      rewrite (op_kid_present s left a (li_left LI)). cbn [obind]. rewrite Hat. cbn [obind fst snd].
      rewrite Hrec. cbn [obind fst snd]. rewrite Hgo, app_assoc. reflexivity.
    + cbn [tsize_kids snd]. rewrite Nat.add_assoc.
      exact (lpost_comp (ks1 := [(a, t)]) LI LP1 LP2).
Qed.

(** the start of a call: [right] is entered in the mapping and [left]
    receives its data *)
Lemma root_piece (E : nat -> Prop) s left right k c :
  Inv n s -> tag s left <> 0 -> bound s k -> free s c ->
  exists s1,
    (if has_data h right then op_put s left (dat h right) else Ok s) = Ok s1
    /\ (forall w, tag s1 w = tag s w) /\ (forall w, edg s1 w = edg s w)
    /\ gpost (eq left) [right] E s s1 [(right, left)] k c.
Proof.
  intros HI Tl HB HF.
  destruct (put_if n s left (has_data h right) (dat h right) HI Tl)
    as (s1 & Hput & I1 & C1 & N1 & T1 & E1 & D1 & P1).
  exists s1. split; [exact Hput|]. split; [exact T1|]. split; [exact E1|]. split.
  - exact I1.
  - apply mono_same; assumption.
  - intros x. reflexivity.
  - intros u v H. apply map_get_single in H as [_ ->]. rewrite T1. auto.
  - intros u1 u2 v H1 H2. apply map_get_single in H1 as [-> _]. apply map_get_single in H2 as [-> _].
    reflexivity.
  - intros v Z P. rewrite T1 in P. contradiction.
  - intros v P Hno. rewrite D1, P1, E1. destruct (Nat.eqb_spec v left) as [->|_]; [|auto].
    destruct (Hno right). apply map_get_single. auto.
  - intros u l H Hd. apply map_get_single in H as [-> ->]. rewrite D1, P1, Hd, Nat.eqb_refl. auto.
  - intros u l H Hd _. apply map_get_single in H as [-> ->]. rewrite D1, P1, Hd, andb_false_r. auto.
  - apply (bound_more s s1 k []); [|exact HB]. intros v. rewrite T1. auto.
  - apply (free_step s); auto. intros v _. rewrite T1. auto.
Qed.

Lemma check_joins_ok s left m es :
  tag s left <> 0 ->
  (forall a to, In (a, to) es -> exists x, mm_get (edg s left) a = Some x /\ map_get m to = Some x) ->
  check_joins s left m es = Ok tt.
Proof.
  intros Tl. induction es as [|[a to] rest IH]; intros H; cbn [check_joins]; [reflexivity|].
  rewrite (op_kid_present s left a Tl). cbn [obind].
  destruct (H a to (or_introl eq_refl)) as (x & H1 & H2). rewrite H1, H2, Nat.eqb_refl.
  apply IH. intros b w Hin. apply (H b w). right; exact Hin.
Qed.

(** a call is its start followed by its loop *)
Lemma cpost_node left right us ks s s1 s2 ext k1 c1 k c :
  NoDup (left :: ids_kids us) -> (forall v, In v (ids_kids us) -> tag s v <> 0) ->
  ~ In right (ids_kids ks) -> edg h right = kid_edges ks ->
  gpost (eq left) [right] (eq left) s s1 [(right, left)] k1 c1 ->
  lpost left us ks s1 s2 ext k c ->
  cpost left (Node left us) (Node right ks) s s2 (ext ++ [(right, left)]) k c.
Proof.
  intros Hnd Pus Nr Er G0 LP. pose proof (lp_g LP) as G.
  inversion Hnd as [|? ? Nl _]; subst.
  assert (Root : map_get (ext ++ [(right, left)]) right = Some left).
  { rewrite map_get_app_r; [apply map_get_single; auto|].
    intros Hin. apply (gp_keys G) in Hin. contradiction. }
  split; [|apply hom_app; [exact (lp_hom LP)|]|exact Root].
  - rewrite !ids_node.
    refine (gpost_weaken _ _ (Nat.le_refl _) (Nat.le_refl _) (gpost_comp _ _ G0 G)).
    + intros v [<-|Q]; [left; reflexivity|right; exact (region_in _ _ _ Q)].
    + intros v <-. right. exists right. exact Root.
    + intros v Q. apply region_in in Q. split; [exact (Pus v Q)|]. intros <-. contradiction.
    + intros x [<-|[]] Hin. apply (gp_keys G) in Hin. contradiction.
  - intros u l a w H Hin. apply map_get_single in H as [-> ->]. rewrite Er in Hin.
    apply kid_edges_in in Hin as (t & Hin & <-). destruct (lp_kids LP Hin) as (x & Hx1 & Hx2).
    exists x. split; [exact Hx1|]. apply map_get_app_l. exact Hx2.
Qed.

Lemma call_all : forall f, call_ok f.
Proof.
  induction f as [|f IHf]; intros s left T U m k c HI Et Nt Dt St Mt Eu Nu Hr Ru HB Hk HF.
  { pose proof (tsize_kids_eq T). lia. }
  destruct T as [right ks]. destruct U as [l us]. cbn [root kids] in *. subst l.
  apply emb_node in Et as (Pr & Er & Ek). apply emb_node in Eu as (Tl & El & Euk).
  rewrite ids_node in *. rewrite tsize_node in St. rewrite maxdeg_node in Mt.
  inversion Nt as [|? ? Nr Nks]; subst. inversion Nu as [|? ? Nl Nus]; subst.
  assert (Gm : map_get m right = None) by (apply map_get_none; apply Dt; left; reflexivity).
  rewrite merge_rec_S, Gm. rewrite chk_v_ok by (apply tag_nonzero_lt; exact Pr). cbn [obind].
  destruct (root_piece (eq left) s left right k (c + tsize_kids ks) HI Tl HB HF)
    as (s1 & Hput & T1 & E1 & G0).
  rewrite Hput. cbn [obind].
  assert (Pus : forall v, In v (ids_kids us) -> tag s v <> 0).
  { intros v Hv. apply ids_kids_spec in Hv as (a & u & Hin & Hv). eapply emb_present; eauto. }
  assert (LI : linv f left us ks s1 ((right, left) :: m) k c).
  { split.
    - exact (gp_inv G0).
    - rewrite T1; exact Tl.
    - intros a t Hin. split; [exact (Ek a t Hin)|].
      pose proof (kids_in ks a t Hin). lia.
    - exact Nks.
    - rewrite <- kid_edges_keys, <- Er. apply (i_edges Hh).
    - intros x Hx [E|Hin]; [subst x; contradiction|]. apply (Dt x); [right; exact Hx|exact Hin].
    - exact Nu.
    - intros v Hv. rewrite T1. apply Pus. exact Hv.
    - intros a x _ Hg. rewrite E1, El in Hg. apply mm_get_in, kid_edges_in in Hg as (u & Hin & Hr).
      exists u. split; [exact Hin|]. split; [exact Hr|]. split.
      + eapply emb_frame; [apply (Euk a u Hin)|]. intros v Hv. rewrite T1, E1. split; [|reflexivity].
        apply Pus. eapply ids_kids_in; eauto.
      + intros v Hv. rewrite E1. apply Ru. right. eapply ids_kids_in; eauto.
    - rewrite E1. pose proof (Ru left (or_introl eq_refl)). lia.
    - exact (gp_bound G0).
    - exact Hk.
    - exact (gp_free G0). }
  destruct (loop_ok f IHf ks s1 ((right, left) :: m) left us k c LI) as (s2 & ext & Hgo & LP).
  rewrite Er, Hgo. cbn [obind fst snd].
  pose proof (cpost_node left right us ks s s1 s2 ext _ _ _ _ Nu Pus Nr Er G0 LP) as CP.
  rewrite check_joins_ok.
  2:{ exact (mo_tag (gp_mono (cp_g CP)) Tl). }
  2:{ intros a to Hin. rewrite <- Er in Hin. destruct (cp_hom CP (cp_root CP) Hin) as (x & H1 & H2).
      exists x. split; [exact H1|]. change ((right, left) :: m) with ([(right, left)] ++ m).
      rewrite app_assoc. apply map_get_app_l. exact H2. }
  cbn [obind].
  exists s2, (ext ++ [(right, left)]). split; [rewrite <- app_assoc; reflexivity|exact CP].
Qed.

End TreeMerge.

(** sufficient for the merge to stay within the capacity limits: at most 16
    vertices in the end (so at most 15 are present when one is grafted: a
    group slot is found and no group overflows), absent ids for the vertices
    of [T] but its root, and room at every vertex of [U] for as many labels
    as the largest out-degree of [T] *)
Definition fits (n : nat) (s : sodg) (U T : tree) : Prop :=
  length (op_keys s) + tsize T <= 16
  /\ tsize T <= S (length (free_list s))
  /\ (forall v, In v (ids U) -> length (edg s v) + maxdeg T <= n).

Definition tree_hyps (n : nat) (s h : sodg) (left right : nat) (U T : tree) : Prop :=
  Inv n s /\ Inv n h /\ embeds s U /\ root U = left /\ embeds h T /\ root T = right
  /\ fits n s U T.

Lemma tree_hyps_embs n s h left right U T :
  tree_hyps n s h left right U T -> emb s U /\ root U = left /\ emb h T /\ root T = right.
Proof. intros (_ & _ & [Eu _] & Hl & [Et _] & Hr & _). auto. Qed.

Lemma merge_trees n s h left right U T :
  tree_hyps n s h left right U T ->
  exists s' m,
    op_merge_mapped n s h left right = Ok (s', m)
    /\ cpost n h left U T s s' m (length (op_keys s) + tsize_kids (kids T)) 0.
Proof.
  intros (HI & Hh & [Eu Nu] & Hl & [Et Nt] & <- & F1 & F2 & F3).
  assert (HD : maxdeg T <= n).
  { pose proof (F3 (root U) (root_in_ids U)). lia. }
  pose proof (tsize_kids_eq T) as TS.
  destruct (call_all n h (maxdeg T) Hh HD (cap_of h + 2) s left T U [] (length (op_keys s)) 0)
    as (s' & ext & Hrec & CP); auto.
  - (* the fuel of [op_merge] suffices: the vertices of [T] are distinct and below the capacity *)
    rewrite tsize_ids. pose proof (nodup_lt_length (ids T) (cap_of h) Nt) as Q.
    assert (length (ids T) <= cap_of h); [|lia]. apply Q.
    intros x Hx. apply tag_nonzero_lt. eapply emb_present; eauto.
  - apply bound_keys.
  - lia.
  - eapply free_le; [apply free_free_list|]. lia.
  - exists s', ext. rewrite app_nil_r in Hrec. split; [exact Hrec|exact CP].
Qed.

Lemma merge_trees_unique n s h left right U T s' m :
  tree_hyps n s h left right U T ->
  op_merge_mapped n s h left right = Ok (s', m) ->
  cpost n h left U T s s' m (length (op_keys s) + tsize_kids (kids T)) 0.
Proof.
  intros H E. destruct (merge_trees n s h left right U T H) as (s2 & m2 & E2 & CP).
  rewrite E in E2. injection E2 as <- <-. exact CP.
Qed.
Arguments merge_trees_unique {n s h left right U T s' m} _ _.

Lemma verdict_tree h T m :
  emb h T -> (forall x, In x (keys m) <-> In x (ids T)) ->
  (verdict h m = None <-> forall v, tag h v <> 0 -> In v (ids T)).
Proof.
  intros Et Ky.
  assert (Hk : forall u, In u (keys m) <-> reach ptrue h (root T) u).
  { intros u. rewrite Ky. apply emb_reach_iff. exact Et. }
  rewrite (verdict_none_iff h (root T) m (emb_hclosed h T Et) Hk). split.
  - intros Hv v Pv. apply Ky, Hk, Hv; [apply tag_nonzero_lt|]; exact Pv.
  - intros Ha v _ Pv. apply Hk, Ky, Ha, Pv.
Qed.

Theorem merge_trees_ok n s h left right U T :
  tree_hyps n s h left right U T ->
  exists s' m,
    op_merge_mapped n s h left right = Ok (s', m)
    /\ op_merge n s h left right = Ok (s', verdict h m)
    /\ (verdict h m = None <-> forall v, tag h v <> 0 -> In v (ids T))
    /\ Inv n s' /\ cap_of s' = cap_of s.
Proof.
  intros H. destruct (merge_trees n s h left right U T H) as (s' & m & E & CP).
  pose proof (cp_g CP) as G. exists s', m. split; [exact E|]. split.
  { rewrite op_merge_projection, E. reflexivity. }
  destruct (tree_hyps_embs _ _ _ _ _ _ _ H) as (_ & _ & Et & _).
  split; [apply verdict_tree; [exact Et|exact (gp_keys G)]|].
  split; [exact (gp_inv G)|exact (mo_cap (gp_mono G))].
Qed.

Fixpoint path (g : sodg) (v : nat) (p : list label) (w : nat) : Prop :=
  match p with
  | [] => v = w
  | a :: r => exists x, mm_get (edg g v) a = Some x /\ path g x r w
  end.

Lemma path_unfold g v p w :
  path g v p w <->
  match p with
  | [] => v = w
  | a :: r => exists x, op_kid g v a = (_ <- chk_v g v ;; Ok (Some x)) /\ mm_get (edg g v) a = Some x
                        /\ path g x r w
  end.
Proof.
  destruct p as [|a r]; cbn [path]; [tauto|]. split.
  - intros (x & H1 & H2). exists x. split; [|split; assumption]. unfold op_kid. rewrite H1. reflexivity.
  - intros (x & _ & H1 & H2). eauto.
Qed.

Lemma path_det g p : forall v w1 w2, path g v p w1 -> path g v p w2 -> w1 = w2.
Proof.
  induction p as [|a r IH]; cbn [path]; intros v w1 w2 H1 H2; [congruence|].
  destruct H1 as (x1 & A1 & B1). destruct H2 as (x2 & A2 & B2).
  assert (x1 = x2) by congruence. subst x2. eapply IH; eauto.
Qed.

Lemma path_in_tree g V : emb g V -> forall p v w, In v (ids V) -> path g v p w -> In w (ids V).
Proof.
  intros E p. induction p as [|a r IH]; cbn [path]; intros v w Hv Hp; [subst; exact Hv|].
  destruct Hp as (x & Hx & Hp). apply (IH x w); [|exact Hp].
  eapply emb_edge_in; eauto. eapply mm_get_in; eauto.
Qed.

Section Consequences.
Variables (n : nat) (s h : sodg) (left right : nat) (U T : tree) (s' : sodg) (m : mapping).
Hypothesis HY : tree_hyps n s h left right U T.
Hypothesis HM : op_merge_mapped n s h left right = Ok (s', m).

Let CP := merge_trees_unique HY HM.
Let G := cp_g CP.

Lemma cq_root : map_get m right = Some left.
Proof. destruct (tree_hyps_embs _ _ _ _ _ _ _ HY) as (_ & _ & _ & <-). exact (cp_root CP). Qed.

Lemma cq_total u : In u (ids T) <-> map_get m u <> None.
Proof.
  rewrite <- (gp_keys G). split.
  - intros H E. apply map_get_none in E. contradiction.
  - intros H. destruct (map_get m u) eqn:E; [eapply map_get_some_key; eauto|congruence].
Qed.

Lemma cq_path_from p : forall u0 l0 u,
  map_get m u0 = Some l0 -> path h u0 p u ->
  exists x, map_get m u = Some x /\ path s' l0 p x.
Proof.
  induction p as [|a r IH]; cbn [path]; intros u0 l0 u H0 Hp.
  - subst u. exists l0. split; [exact H0|reflexivity].
  - destruct Hp as (w & Hw & Hp). apply mm_get_in in Hw.
    destruct (cp_hom CP H0 Hw) as (y & Hy1 & Hy2).
    destruct (IH w y u Hy2 Hp) as (x & Hx1 & Hx2). exists x. split; [exact Hx1|]. exists y. auto.
Qed.

Theorem cq_paths p u :
  path h right p u -> exists x, map_get m u = Some x /\ path s' left p x.
Proof. apply cq_path_from. apply cq_root. Qed.

Theorem cq_data u x :
  map_get m u = Some x -> has_data h u = true ->
  has_data s' x = true /\ dat s' x = dat h u.
Proof.
  intros H Hd. destruct (gp_data G H Hd) as [A1 A2].
  split; [unfold has_data; rewrite A2; reflexivity|exact A1].
Qed.

Theorem cq_kept v :
  tag s v <> 0 ->
  tag s' v <> 0 /\ forall a w, mm_get (edg s v) a = Some w -> mm_get (edg s' v) a = Some w.
Proof. intros P. split; [exact (mo_tag (gp_mono G) P)|]. intros a w. exact (mo_keep (gp_mono G) P). Qed.

Theorem cq_untouched v :
  tag s v <> 0 -> (forall u, map_get m u <> Some v) ->
  dat s' v = dat s v /\ prs s' v = prs s v /\ edg s' v = edg s v.
Proof.
  intros P Hno. destruct (gp_frame G P Hno) as (A1 & A2 & A3).
  split; [exact A1|]. split; [exact A2|]. apply A3. intros [].
Qed.

Theorem cq_outside v :
  tag s v <> 0 -> ~ In v (ids U) ->
  dat s' v = dat s v /\ prs s' v = prs s v /\ edg s' v = edg s v.
Proof.
  intros P Hout. apply cq_untouched; [exact P|]. intros u Hu.
  destruct (gp_img G Hu) as [_ [Q|[Q _]]]; contradiction.
Qed.

Theorem cq_new v :
  tag s v = 0 -> tag s' v <> 0 ->
  g_next s <= v
  /\ exists u, In u (ids T) /\ map_get m u = Some v /\ forall u', map_get m u' = Some v -> u' = u.
Proof.
  intros Zv Pv. destruct (gp_new G Zv Pv) as (Hg & u & Hu).
  split; [exact Hg|]. exists u. split; [apply cq_total; congruence|]. split; [exact Hu|].
  intros u' Hu'. exact (gp_inj G Hu' Hu).
Qed.

Lemma cq_newdesc p : forall w y u x,
  map_get m w = Some y -> path h w p u -> map_get m u = Some x -> tag s y = 0 -> tag s x = 0.
Proof.
  induction p as [|a r IH]; cbn [path]; intros w y u x Hw Hp Hu Zy.
  - subst u. congruence.
  - destruct Hp as (w' & Hw' & Hp). apply mm_get_in in Hw'.
    destruct (cp_hom CP Hw Hw') as (y' & Hy1 & Hy2).
    apply (IH w' y' u x Hy2 Hp Hu).
    exact (mo_new (gp_mono G) Zy (proj1 (gp_img G Hw)) Hy1).
Qed.

Lemma cq_oldpath p : forall u0 l0 u x,
  map_get m u0 = Some l0 -> path h u0 p u -> map_get m u = Some x -> tag s x <> 0 ->
  path s l0 p x.
Proof.
  induction p as [|a r IH]; cbn [path]; intros u0 l0 u x H0 Hp Hu Px.
  - subst u. congruence.
  - assert (P0 : tag s l0 <> 0).
    { intros Z0. apply Px. exact (cq_newdesc (a :: r) u0 l0 u x H0 Hp Hu Z0). }
    destruct Hp as (w & Hw & Hp). pose proof (mm_get_in _ _ _ Hw) as Hw'.
    destruct (cp_hom CP H0 Hw') as (y & Hy1 & Hy2).
    assert (Py : tag s y <> 0).
    { intros Zy. apply Px. exact (cq_newdesc r w y u x Hy2 Hp Hu Zy). }
    exists y. split; [|eapply IH; eauto].
    destruct (mo_old (gp_mono G) P0 Hy1) as [Q|Q]; [exact Q|contradiction].
Qed.

Lemma cq_path_kept p : forall v w, In v (ids U) -> path s v p w -> path s' v p w.
Proof.
  destruct (tree_hyps_embs _ _ _ _ _ _ _ HY) as (Eu & _).
  induction p as [|a r IH]; cbn [path]; intros v w Hv Hp; [exact Hp|].
  destruct Hp as (x & Hx & Hp). exists x. split.
  - apply cq_kept; [eapply emb_present; eauto|exact Hx].
  - apply IH; [|exact Hp]. eapply emb_edge_in; eauto. eapply mm_get_in; eauto.
Qed.

Theorem cq_fresh_iff p u x :
  path h right p u -> map_get m u = Some x ->
  (forall w, path s left p w -> w = x)
  /\ ((~ exists w, path s left p w) -> tag s x = 0 /\ g_next s <= x)
  /\ (tag s x <> 0 -> path s left p x).
Proof.
  intros Hp Hu.
  assert (Hl : In left (ids U)).
  { destruct (tree_hyps_embs _ _ _ _ _ _ _ HY) as (_ & <- & _). apply root_in_ids. }
  destruct (cq_paths p u Hp) as (x' & Hx1 & Hx2). assert (x' = x) by congruence. subst x'.
  assert (Old : tag s x <> 0 -> path s left p x).
  { intros Px. eapply cq_oldpath; eauto. apply cq_root. }
  split; [|split; [|exact Old]].
  - intros w Hw. eapply path_det; [apply cq_path_kept; eauto|exact Hx2].
  - intros Hno. destruct (Nat.eq_dec (tag s x) 0) as [Zx|Px].
    + split; [exact Zx|]. apply cq_new; [exact Zx|]. apply (gp_img G Hu).
    + exfalso. apply Hno. exists x. apply Old. exact Px.
Qed.

End Consequences.
