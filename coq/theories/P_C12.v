(** * C12  merge reports the right vertices it did not reach

    Property text: merge() returns Ok only if every present vertex of the
    right graph has been mapped onto a vertex of the left graph.  If some
    present vertex of the right graph cannot be reached from [right], the
    call returns Err naming the vertices it missed instead of reporting
    success.  Quantifier: every right graph made of a tree plus any number of
    extra present vertices or detached sub-trees, every left tree and every
    [left].

    Reading guide.  [op_merge n s h left right] (Merge.v) models
    [s.merge(&h, left, right)]; [s] is the left graph (mutated), [h] the right
    graph (immutable: a value of the functional model, unchanged by
    construction).  The result [Ok (s', None)] is Rust's [Ok(())],
    [Ok (s', Some missed)] is the [Err] whose message names [missed];
    [Panic]/[Unmodelled] are the other ways the call can end ([Unmodelled]:
    the code would call [join()]); [OutOfFuel] is excluded by C12_never_out_of_fuel.
    [op_merge_mapped] is the same call returning the final [mapped] table
    instead of the verdict, [map_get m v] looks a right vertex up in it,
    [keys m] are its keys.  [reach ptrue h right v]: [v] can be reached from
    [right] along the edges of [h] (Reach.v).  [hclosed h right]: [right] is a
    slot of [h] and everything reachable from it is a present vertex whose
    edges point to slots -- true of every graph whose edges point to present
    vertices ([C12_hclosed_sufficient]), in particular of a tree of present
    vertices plus any other present vertices or detached sub-trees.

    Parts (a)-(d) need nothing from the left graph nor from [left]: they
    speak about every run that returns (proofs: MergeFacts.v).  Part (e), on
    the images, needs a left graph without dangling edges (MergePresent.v).
    Part (f) is (a)-(d) for the extended merge of XJoin.v (XMergeFacts.v). *)

From Sodg Require Import MergePresent XMergeFacts.

(** ** the definitions the statements use, unfolded *)

Theorem C12_def_hclosed : forall h right,
  hclosed h right <->
  right < cap_of h /\
  forall u, reach ptrue h right u ->
            tag h u <> 0 /\ forall a w, In (a, w) (edg h u) -> w < cap_of h.
Proof. intros h right. unfold hclosed. reflexivity. Qed.
Check C12_def_hclosed : forall h right,
  hclosed h right <->
  right < cap_of h /\
  forall u, reach ptrue h right u ->
            tag h u <> 0 /\ forall a w, In (a, w) (edg h u) -> w < cap_of h.
Print Assumptions C12_def_hclosed.

Theorem C12_def_reach : forall p g v w,
  reach p g v w <->
  w = v \/ exists u a, reach p g v u /\ In (a, w) (edg g u) /\ p u w a = true.
Proof. exact reach_unfold. Qed.
Check C12_def_reach : forall p g v w,
  reach p g v w <->
  w = v \/ exists u a, reach p g v u /\ In (a, w) (edg g u) /\ p u w a = true.
Print Assumptions C12_def_reach.

Theorem C12_hclosed_sufficient : forall h right,
  hclosedb h right = true -> hclosed h right.
Proof. exact hclosedb_hclosed. Qed.
Check C12_hclosed_sufficient : forall h right,
  hclosedb h right = true -> hclosed h right.
Print Assumptions C12_hclosed_sufficient.

(** [op_merge] is [op_merge_mapped] followed by the comparison of the number
    of distinct keys with [len()] of the right graph *)
Theorem C12_def_op_merge : forall n s g left right,
  op_merge n s g left right =
  (r <- op_merge_mapped n s g left right ;; Ok (fst r, verdict g (snd r))).
Proof. exact op_merge_projection. Qed.
Check C12_def_op_merge : forall n s g left right,
  op_merge n s g left right =
  (r <- op_merge_mapped n s g left right ;; Ok (fst r, verdict g (snd r))).
Print Assumptions C12_def_op_merge.

(** ** (a) the recursion is a depth-first search whose visited set is the key
    set of [mapped] *)

(** any call, any mapping handed in: the keys afterwards are the keys before
    plus what is reachable from [right] along edges whose targets are not
    keys yet ([pav K _ w _ = true] iff [w] is not in [K]) *)
Theorem C12_merge_rec_keys_gen : forall f n h s left right m s' m',
  merge_rec f n h s left right m = Ok (s', m') ->
  forall u, In u (keys m') <->
            In u (keys m) \/ (~ In right (keys m) /\ reach (pav (keys m)) h right u).
Proof. exact merge_rec_keys_gen. Qed.
Check C12_merge_rec_keys_gen : forall f n h s left right m s' m',
  merge_rec f n h s left right m = Ok (s', m') ->
  forall u, In u (keys m') <->
            In u (keys m) \/ (~ In right (keys m) /\ reach (pav (keys m)) h right u).
Print Assumptions C12_merge_rec_keys_gen.

Theorem C12_def_pav : forall K x y a, pav K x y a = true <-> ~ In y K.
Proof. exact pav_true. Qed.
Check C12_def_pav : forall K x y a, pav K x y a = true <-> ~ In y K.
Print Assumptions C12_def_pav.

(** the top-level call: the keys are exactly the vertices reachable from [right] *)
Theorem C12_merge_rec_keys : forall f n h s left right s' m',
  merge_rec f n h s left right [] = Ok (s', m') ->
  forall u, In u (map fst m') <-> reach ptrue h right u.
Proof. exact merge_rec_keys. Qed.
Check C12_merge_rec_keys : forall f n h s left right s' m',
  merge_rec f n h s left right [] = Ok (s', m') ->
  forall u, In u (map fst m') <-> reach ptrue h right u.
Print Assumptions C12_merge_rec_keys.

Theorem C12_merge_rec_keys_nodup : forall f n h s left right s' m',
  merge_rec f n h s left right [] = Ok (s', m') -> NoDup (map fst m').
Proof. exact merge_rec_keys_nodup. Qed.
Check C12_merge_rec_keys_nodup : forall f n h s left right s' m',
  merge_rec f n h s left right [] = Ok (s', m') -> NoDup (map fst m').
Print Assumptions C12_merge_rec_keys_nodup.

(** ** (b) Ok only if every present right vertex has been mapped *)

Theorem C12_ok_complete : forall n s h left right s',
  hclosed h right -> op_merge n s h left right = Ok (s', None) ->
  forall v, tag h v <> 0 -> v < cap_of h -> reach ptrue h right v.
Proof. exact merge_ok_complete. Qed.
Check C12_ok_complete : forall n s h left right s',
  hclosed h right -> op_merge n s h left right = Ok (s', None) ->
  forall v, tag h v <> 0 -> v < cap_of h -> reach ptrue h right v.
Print Assumptions C12_ok_complete.

Theorem C12_ok_mapped : forall n s h left right s',
  hclosed h right -> op_merge n s h left right = Ok (s', None) ->
  exists m', op_merge_mapped n s h left right = Ok (s', m')
             /\ forall v, tag h v <> 0 -> map_get m' v <> None.
Proof. exact merge_ok_mapped. Qed.
Check C12_ok_mapped : forall n s h left right s',
  hclosed h right -> op_merge n s h left right = Ok (s', None) ->
  exists m', op_merge_mapped n s h left right = Ok (s', m')
             /\ forall v, tag h v <> 0 -> map_get m' v <> None.
Print Assumptions C12_ok_mapped.

(** ** (c) a present vertex that is not reachable from [right] turns the
    result into the error, which names exactly the unreachable present
    vertices, in ascending order *)

Theorem C12_err_names_missed : forall n s h left right s' r,
  hclosed h right -> op_merge n s h left right = Ok (s', r) ->
  (exists v, v < cap_of h /\ tag h v <> 0 /\ ~ reach ptrue h right v) ->
  exists missed,
    r = Some missed
    /\ (forall v, In v missed <-> (v < cap_of h /\ tag h v <> 0 /\ ~ reach ptrue h right v))
    /\ StronglySorted lt missed.
Proof. exact merge_err_names_missed. Qed.
Check C12_err_names_missed : forall n s h left right s' r,
  hclosed h right -> op_merge n s h left right = Ok (s', r) ->
  (exists v, v < cap_of h /\ tag h v <> 0 /\ ~ reach ptrue h right v) ->
  exists missed,
    r = Some missed
    /\ (forall v, In v missed <-> (v < cap_of h /\ tag h v <> 0 /\ ~ reach ptrue h right v))
    /\ StronglySorted lt missed.
Print Assumptions C12_err_names_missed.

(** conversely *)
Theorem C12_all_reached_ok : forall n s h left right s' r,
  hclosed h right -> op_merge n s h left right = Ok (s', r) ->
  (forall v, v < cap_of h -> tag h v <> 0 -> reach ptrue h right v) ->
  r = None.
Proof. exact merge_all_reached_ok. Qed.
Check C12_all_reached_ok : forall n s h left right s' r,
  hclosed h right -> op_merge n s h left right = Ok (s', r) ->
  (forall v, v < cap_of h -> tag h v <> 0 -> reach ptrue h right v) ->
  r = None.
Print Assumptions C12_all_reached_ok.

(** ** (d) the fuel of the model is never the reason why the call stops
    (unconditionally: the boundary check on [right] comes first) *)

Theorem C12_never_out_of_fuel : forall n s h left right,
  op_merge n s h left right <> OutOfFuel.
Proof. exact op_merge_fuel. Qed.
Check C12_never_out_of_fuel : forall n s h left right,
  op_merge n s h left right <> OutOfFuel.
Print Assumptions C12_never_out_of_fuel.

Theorem C12_mapped_never_out_of_fuel : forall n s h left right,
  op_merge_mapped n s h left right <> OutOfFuel.
Proof. exact op_merge_mapped_fuel. Qed.
Check C12_mapped_never_out_of_fuel : forall n s h left right,
  op_merge_mapped n s h left right <> OutOfFuel.
Print Assumptions C12_mapped_never_out_of_fuel.

(** ** (e) "mapped onto a vertex of the left graph": every image is a present
    vertex of the left graph after the call, provided the left graph has no
    edge from a present vertex into a collected one ([lclosed]: true of every
    left tree of present vertices; reachable graphs in general can have such
    edges, and then merge follows them: [C12_dangling_image_absent] shows the
    model answering Ok while a right vertex sits on an absent left slot -- a
    left graph outside the property's quantifier).  Proofs: MergePresent.v. *)

Theorem C12_def_lclosed :
  forall s, lclosed s <->
  (forall u a w, u < cap_of s -> tag s u <> 0 -> In (a, w) (edg s u) -> w < cap_of s /\ tag s w <> 0).
Proof. exact (fun s => conj (fun H => H) (fun H => H)). Qed.

Check C12_def_lclosed :
  forall s, lclosed s <->
  (forall u a w, u < cap_of s -> tag s u <> 0 -> In (a, w) (edg s u) -> w < cap_of s /\ tag s w <> 0).
Print Assumptions C12_def_lclosed.

Theorem C12_ok_images_present :
  forall n s h left right s',
  Inv n s -> lclosed s -> tag s left <> 0 -> hclosed h right ->
  op_merge n s h left right = Ok (s', None) ->
  exists m', op_merge_mapped n s h left right = Ok (s', m')
    /\ forall v, tag h v <> 0 -> exists w, map_get m' v = Some w /\ w < cap_of s' /\ tag s' w <> 0.
Proof. exact merge_ok_images_present. Qed.

Check C12_ok_images_present :
  forall n s h left right s',
  Inv n s -> lclosed s -> tag s left <> 0 -> hclosed h right ->
  op_merge n s h left right = Ok (s', None) ->
  exists m', op_merge_mapped n s h left right = Ok (s', m')
    /\ forall v, tag h v <> 0 -> exists w, map_get m' v = Some w /\ w < cap_of s' /\ tag s' w <> 0.
Print Assumptions C12_ok_images_present.

Theorem C12_images_present :
  forall n s h left right s' r,
  Inv n s -> lclosed s -> tag s left <> 0 ->
  op_merge n s h left right = Ok (s', r) ->
  exists m', op_merge_mapped n s h left right = Ok (s', m')
    /\ forall v w, map_get m' v = Some w -> w < cap_of s' /\ tag s' w <> 0.
Proof. exact merge_any_images_present. Qed.

Check C12_images_present :
  forall n s h left right s' r,
  Inv n s -> lclosed s -> tag s left <> 0 ->
  op_merge n s h left right = Ok (s', r) ->
  exists m', op_merge_mapped n s h left right = Ok (s', m')
    /\ forall v w, map_get m' v = Some w -> w < cap_of s' /\ tag s' w <> 0.
Print Assumptions C12_images_present.

Theorem C12_left_stays_closed :
  forall n s h left right s' m',
  Inv n s -> lclosed s -> left < cap_of s -> tag s left <> 0 ->
  op_merge_mapped n s h left right = Ok (s', m') ->
  lclosed s' /\ cap_of s' = cap_of s /\ (forall u, u < cap_of s -> tag s u <> 0 -> tag s' u <> 0).
Proof. intros n s h left right s' m' HI HC _. exact (merge_keeps_lclosed n s h left right s' m' HI HC). Qed.

Check C12_left_stays_closed :
  forall n s h left right s' m',
  Inv n s -> lclosed s -> left < cap_of s -> tag s left <> 0 ->
  op_merge_mapped n s h left right = Ok (s', m') ->
  lclosed s' /\ cap_of s' = cap_of s /\ (forall u, u < cap_of s -> tag s u <> 0 -> tag s' u <> 0).
Print Assumptions C12_left_stays_closed.

Theorem C12_ex_images_present_hyps :
  Inv 16 exP_s /\ lclosed exP_s /\ 0 < cap_of exP_s /\ tag exP_s 0 <> 0 /\ hclosed exP_h 0.
Proof. exact merge_present_ex_hyps. Qed.

Check C12_ex_images_present_hyps :
  Inv 16 exP_s /\ lclosed exP_s /\ 0 < cap_of exP_s /\ tag exP_s 0 <> 0 /\ hclosed exP_h 0.
Print Assumptions C12_ex_images_present_hyps.

Theorem C12_ex_images_present :
  exists s',
    op_merge 16 exP_s exP_h 0 0 = Ok (s', None)
    /\ op_merge_mapped 16 exP_s exP_h 0 0 = Ok (s', [(2, 3); (4, 2); (3, 4); (1, 1); (0, 0)])
    /\ op_keys exP_s = [0; 1; 4; 5] /\ op_keys s' = [0; 1; 2; 3; 4; 5]
    /\ lclosedb s' = true /\ cap_of s' = cap_of exP_s.
Proof. exact merge_present_ex_result. Qed.

Check C12_ex_images_present :
  exists s',
    op_merge 16 exP_s exP_h 0 0 = Ok (s', None)
    /\ op_merge_mapped 16 exP_s exP_h 0 0 = Ok (s', [(2, 3); (4, 2); (3, 4); (1, 1); (0, 0)])
    /\ op_keys exP_s = [0; 1; 4; 5] /\ op_keys s' = [0; 1; 2; 3; 4; 5]
    /\ lclosedb s' = true /\ cap_of s' = cap_of exP_s.
Print Assumptions C12_ex_images_present.

Theorem C12_dangling_left_hyps :
  Inv 16 exD_s /\ 0 < cap_of exD_s /\ tag exD_s 0 <> 0 /\ hclosed exD_h 0
  /\ lclosedb exD_s = false
  /\ op_keys exD_s = [0; 1] /\ edg exD_s 0 = [(Alpha 0, 1); (Alpha 1, 2)] /\ tag exD_s 2 = 0.
Proof. exact merge_dangling_hyps. Qed.

Check C12_dangling_left_hyps :
  Inv 16 exD_s /\ 0 < cap_of exD_s /\ tag exD_s 0 <> 0 /\ hclosed exD_h 0
  /\ lclosedb exD_s = false
  /\ op_keys exD_s = [0; 1] /\ edg exD_s 0 = [(Alpha 0, 1); (Alpha 1, 2)] /\ tag exD_s 2 = 0.
Print Assumptions C12_dangling_left_hyps.

Theorem C12_dangling_image_absent :
  exists s' m',
    op_merge 16 exD_s exD_h 0 0 = Ok (s', None)
    /\ op_merge_mapped 16 exD_s exD_h 0 0 = Ok (s', m')
    /\ tag exD_h 1 <> 0 /\ map_get m' 1 = Some 2 /\ tag s' 2 = 0
    /\ op_keys s' = [0; 1].
Proof. exact merge_dangling_image_absent. Qed.

Check C12_dangling_image_absent :
  exists s' m',
    op_merge 16 exD_s exD_h 0 0 = Ok (s', None)
    /\ op_merge_mapped 16 exD_s exD_h 0 0 = Ok (s', m')
    /\ tag exD_h 1 <> 0 /\ map_get m' 1 = Some 2 /\ tag s' 2 = 0
    /\ op_keys s' = [0; 1].
Print Assumptions C12_dangling_image_absent.

(** ** (f) the same verdict theorems for the EXTENDED merge of XJoin.v, i.e.
    for the function the driver actually runs, on arbitrary operands: right
    graphs that are not trees (so that [join()] happens, any number of
    times), operands with vacant slots.  No hypothesis on the left graph, on
    holes or on well-formedness; [hclosed (xg g) right] as before ("everything
    reachable from [right] is present", necessary: XMergeFacts.ex_present_needed).
    A reachable vacant slot makes the call panic, so it cannot occur in a call
    that returns.  Proofs: XMergeFacts.v. *)

Theorem C12x_mapped_keys :
  forall n s g left right s' m',
  x_merge_mapped n s g left right = Ok (s', m') ->
  (forall u, In u (keys m') <-> reach ptrue (xg g) right u)
  /\ NoDup (keys m')
  /\ (forall u, In u (keys m') -> u < cap_of (xg g) /\ mem u (xh g) = false).
Proof. exact x_merge_mapped_keys. Qed.

Check C12x_mapped_keys :
  forall n s g left right s' m',
  x_merge_mapped n s g left right = Ok (s', m') ->
  (forall u, In u (keys m') <-> reach ptrue (xg g) right u)
  /\ NoDup (keys m')
  /\ (forall u, In u (keys m') -> u < cap_of (xg g) /\ mem u (xh g) = false).
Print Assumptions C12x_mapped_keys.

Theorem C12x_projection :
  forall n s g left right,
  x_merge n s g left right = (r <- x_merge_mapped n s g left right ;; Ok (fst r, verdict (xg g) (snd r))).
Proof. exact x_merge_projection. Qed.

Check C12x_projection :
  forall n s g left right,
  x_merge n s g left right = (r <- x_merge_mapped n s g left right ;; Ok (fst r, verdict (xg g) (snd r))).
Print Assumptions C12x_projection.

Theorem C12x_ok_complete :
  forall n s g left right s',
  hclosed (xg g) right -> x_merge n s g left right = Ok (s', None) ->
  forall v, tag (xg g) v <> 0 -> v < cap_of (xg g) -> reach ptrue (xg g) right v.
Proof. exact x_merge_ok_complete. Qed.

Check C12x_ok_complete :
  forall n s g left right s',
  hclosed (xg g) right -> x_merge n s g left right = Ok (s', None) ->
  forall v, tag (xg g) v <> 0 -> v < cap_of (xg g) -> reach ptrue (xg g) right v.
Print Assumptions C12x_ok_complete.

Theorem C12x_ok_mapped :
  forall n s g left right s',
  hclosed (xg g) right -> x_merge n s g left right = Ok (s', None) ->
  exists m', x_merge_mapped n s g left right = Ok (s', m')
             /\ forall v, tag (xg g) v <> 0 -> map_get m' v <> None.
Proof. exact x_merge_ok_mapped. Qed.

Check C12x_ok_mapped :
  forall n s g left right s',
  hclosed (xg g) right -> x_merge n s g left right = Ok (s', None) ->
  exists m', x_merge_mapped n s g left right = Ok (s', m')
             /\ forall v, tag (xg g) v <> 0 -> map_get m' v <> None.
Print Assumptions C12x_ok_mapped.

Theorem C12x_err_names_missed :
  forall n s g left right s' r,
  hclosed (xg g) right -> x_merge n s g left right = Ok (s', r) ->
  (exists v, v < cap_of (xg g) /\ tag (xg g) v <> 0 /\ ~ reach ptrue (xg g) right v) ->
  exists missed,
    r = Some missed
    /\ (forall v, In v missed <->
                  (v < cap_of (xg g) /\ tag (xg g) v <> 0 /\ ~ reach ptrue (xg g) right v))
    /\ StronglySorted lt missed.
Proof. exact x_merge_err_names_missed. Qed.

Check C12x_err_names_missed :
  forall n s g left right s' r,
  hclosed (xg g) right -> x_merge n s g left right = Ok (s', r) ->
  (exists v, v < cap_of (xg g) /\ tag (xg g) v <> 0 /\ ~ reach ptrue (xg g) right v) ->
  exists missed,
    r = Some missed
    /\ (forall v, In v missed <->
                  (v < cap_of (xg g) /\ tag (xg g) v <> 0 /\ ~ reach ptrue (xg g) right v))
    /\ StronglySorted lt missed.
Print Assumptions C12x_err_names_missed.

Theorem C12x_all_reached_ok :
  forall n s g left right s' r,
  hclosed (xg g) right -> x_merge n s g left right = Ok (s', r) ->
  (forall v, v < cap_of (xg g) -> tag (xg g) v <> 0 -> reach ptrue (xg g) right v) ->
  r = None.
Proof. exact x_merge_all_reached_ok. Qed.

Check C12x_all_reached_ok :
  forall n s g left right s' r,
  hclosed (xg g) right -> x_merge n s g left right = Ok (s', r) ->
  (forall v, v < cap_of (xg g) -> tag (xg g) v <> 0 -> reach ptrue (xg g) right v) ->
  r = None.
Print Assumptions C12x_all_reached_ok.

Theorem C12x_never_out_of_fuel :
  forall n s g left right, x_merge n s g left right <> OutOfFuel.
Proof. exact x_merge_fuel. Qed.

Check C12x_never_out_of_fuel :
  forall n s g left right, x_merge n s g left right <> OutOfFuel.
Print Assumptions C12x_never_out_of_fuel.

(** ** non-vacuity *)

(** right graph: the tree 0 -a-> 1, 0 -b-> 2 plus the isolated present vertex 5
    and a detached sub-tree 6 -a-> 7; left graph: the single vertex 0 *)
Definition ex12_h : sodg :=
  build 16 8 [OAdd 0; OAdd 1; OAdd 2; OAdd 5; OAdd 6; OAdd 7;
              OBind 0 1 (Alpha 0); OBind 0 2 (Alpha 1); OBind 6 7 (Alpha 0)].
Definition ex12_s : sodg := build 16 8 [OAdd 0].

Example C12_ex_hclosed : hclosed ex12_h 0.
Proof. apply hclosedb_hclosed. vm_compute. reflexivity. Qed.

Example C12_ex_missed :
  exists s', op_merge 16 ex12_s ex12_h 0 0 = Ok (s', Some [5; 6; 7]).
Proof. eexists. vm_compute. reflexivity. Qed.

Example C12_ex_unreachable_present :
  5 < cap_of ex12_h /\ tag ex12_h 5 <> 0 /\ ~ reach ptrue ex12_h 0 5.
Proof.
  split; [vm_compute; lia|]. split; [vm_compute; discriminate|].
  intros H. apply (reach_in_closed_list ptrue _ 0 [0; 1; 2]) in H; [|vm_compute; reflexivity|left; reflexivity].
  destruct H as [H|[H|[H|[]]]]; discriminate.
Qed.

(** the same right graph without the extras: the call reports success, and
    the mapping sends 0, 1, 2 to 0 and two fresh vertices *)
Definition ex12_h2 : sodg :=
  build 16 8 [OAdd 0; OAdd 1; OAdd 2; OBind 0 1 (Alpha 0); OBind 0 2 (Alpha 1)].

Example C12_ex_ok :
  hclosed ex12_h2 0 /\
  exists s', op_merge 16 ex12_s ex12_h2 0 0 = Ok (s', None)
             /\ op_merge_mapped 16 ex12_s ex12_h2 0 0 = Ok (s', [(2, 2); (1, 1); (0, 0)]).
Proof.
  split; [apply hclosedb_hclosed; vm_compute; reflexivity|].
  eexists. eapply op_merge_both; vm_compute; reflexivity.
Qed.

(** the extended merge WITH a join: left 0 -a-> 1, 0 -b-> 2, right 0 -a-> 5,
    0 -b-> 5 (one kid under two names); [op_merge] answers [Unmodelled],
    [x_merge] performs the join (left slot 1 becomes vacant) *)
Example C12x_ex_join_old : op_merge 16 (xg exj_l) (xg exj_r) 0 0 = Unmodelled.
Proof. exact exj_old. Qed.

Example C12x_ex_join_unreachable :
  hclosed (xg exj_r2) 0 /\
  exists x, x_merge 16 exj_l exj_r2 0 0 = Ok (x, Some [3]) /\ xh x = [1] /\ x_keys x = [0; 2; 3].
Proof. split; [exact exj2_hclosed | exact exj2_result]. Qed.
