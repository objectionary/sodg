(** * C11  merge of two trees

    Property text: if both graphs are trees of present vertices,
    g.merge(&h, left, right) returns Ok and afterwards every labelled path
    from [right] in h exists from [left] in g and ends in a vertex carrying
    the same data bytes, distinct h vertices landing on distinct g vertices;
    h itself is unchanged.  Everything g had before is still there, only edges
    and data demanded by h are added, and exactly one new vertex is created
    per h path that g lacked, under an id that was not present.  Afterwards g
    keeps obeying C01-C03 as if the additions had been made by add/bind/put.
    Quantifier: every pair of trees whose result stays within the capacity
    limits.

    Reading guide.  [s] is the left graph (Rust: g, mutated), [h] the right
    graph.  [h] is an immutable value of the functional model and is not
    returned by [op_merge]: it is unchanged by construction.
    [op_merge n s h left right] models [s.merge(&h, left, right)] with result
    [Ok (s', None)] for Rust's [Ok(())] and [Ok (s', Some missed)] for the
    [Err] naming the present right vertices that were not reached (C12);
    [op_merge_mapped] is the same call returning the final [mapped] table
    [m] ([C12_def_op_merge] in P_C12.v), [map_get m u] is the left vertex the
    right vertex [u] was mapped to.
    [tree] is a finite tree of vertex ids with labelled kids; [ids T] its
    vertices in pre-order, [tsize T] their number, [maxdeg T] the largest
    number of kids of a node.  [embeds g T]: every node of [T] is a present
    vertex of [g] whose edges are exactly, in order, the labelled kids of the
    node, and no vertex occurs twice in [T] -- the part of [g] reachable from
    [root T] is the tree [T].  The left graph may contain anything else
    besides [U]; the right graph may contain other present vertices besides
    [T] (then the verdict is the error of C12, see [C11_ok]).
    [fits n s U T] is a sufficient condition for "stays within the capacity
    limits", see [C11_def_fits].  IT IS NOT NECESSARY: the theorems below
    cover the pairs of trees with at most 16 vertices in total (present
    vertices of the left graph plus vertices of [T]), enough absent ids at or
    above the allocator position, and room for [maxdeg T] more labels at every
    vertex of [U]; larger merges that the crate would still carry out without
    a panic are outside the quantifier of this file (see DESIGN.md).
    [path g v p w]: following the labels [p] from [v] with [kid] leads to [w].
    [Inv n g] is the representation invariant of Inv.v.

    [merge_trees] (MergeTreeFacts.v) proves that the call returns with a
    result satisfying [cpost], the summary of a call of [merge_rec]; parts
    1-5 are fields of that summary or follow from them (section Consequences
    there).  Part 6, on the last sentence of the property, holds of every run
    (MergeFacts.v). *)

From Sodg Require History.
From Sodg Require Import MergeTreeFacts.

(** ** the definitions the statements use, unfolded *)

Theorem C11_def_ids : forall i ks, ids (Node i ks) = i :: ids_kids ks.
Proof. exact ids_node. Qed.
Check C11_def_ids : forall i ks, ids (Node i ks) = i :: ids_kids ks.
Print Assumptions C11_def_ids.

Theorem C11_def_ids_kids : forall ks v,
  In v (ids_kids ks) <-> exists a t, In (a, t) ks /\ In v (ids t).
Proof. exact ids_kids_spec. Qed.
Check C11_def_ids_kids : forall ks v,
  In v (ids_kids ks) <-> exists a t, In (a, t) ks /\ In v (ids t).
Print Assumptions C11_def_ids_kids.

Theorem C11_def_tsize : forall T, tsize T = length (ids T).
Proof. exact tsize_ids. Qed.
Check C11_def_tsize : forall T, tsize T = length (ids T).
Print Assumptions C11_def_tsize.

Theorem C11_def_maxdeg : forall i ks,
  maxdeg (Node i ks) = Nat.max (length ks) (maxdeg_kids ks).
Proof. exact maxdeg_node. Qed.
Check C11_def_maxdeg : forall i ks,
  maxdeg (Node i ks) = Nat.max (length ks) (maxdeg_kids ks).
Print Assumptions C11_def_maxdeg.

Theorem C11_def_emb : forall g i ks,
  emb g (Node i ks) <->
  tag g i <> 0
  /\ edg g i = map (fun p : label * tree => (fst p, root (snd p))) ks
  /\ forall a t, In (a, t) ks -> emb g t.
Proof. exact emb_node. Qed.
Check C11_def_emb : forall g i ks,
  emb g (Node i ks) <->
  tag g i <> 0
  /\ edg g i = map (fun p : label * tree => (fst p, root (snd p))) ks
  /\ forall a t, In (a, t) ks -> emb g t.
Print Assumptions C11_def_emb.

Theorem C11_def_embeds : forall g T, embeds g T <-> emb g T /\ NoDup (ids T).
Proof. reflexivity. Qed.
Check C11_def_embeds : forall g T, embeds g T <-> emb g T /\ NoDup (ids T).
Print Assumptions C11_def_embeds.

Theorem C11_embeds_reach : forall g T,
  emb g T -> forall u, In u (ids T) <-> reach ptrue g (root T) u.
Proof. exact emb_reach_iff. Qed.
Check C11_embeds_reach : forall g T,
  emb g T -> forall u, In u (ids T) <-> reach ptrue g (root T) u.
Print Assumptions C11_embeds_reach.

Theorem C11_def_fits : forall n s U T,
  fits n s U T <->
  length (op_keys s) + tsize T <= 16
  /\ tsize T <= S (length (filter (fun v => (tag s v =? 0) && (g_next s <=? v)) (iota (cap_of s))))
  /\ (forall v, In v (ids U) -> length (edg s v) + maxdeg T <= n).
Proof. reflexivity. Qed.
Check C11_def_fits : forall n s U T,
  fits n s U T <->
  length (op_keys s) + tsize T <= 16
  /\ tsize T <= S (length (filter (fun v => (tag s v =? 0) && (g_next s <=? v)) (iota (cap_of s))))
  /\ (forall v, In v (ids U) -> length (edg s v) + maxdeg T <= n).
Print Assumptions C11_def_fits.

Theorem C11_def_tree_hyps : forall n s h left right U T,
  tree_hyps n s h left right U T <->
  Inv n s /\ Inv n h /\ embeds s U /\ root U = left /\ embeds h T /\ root T = right
  /\ fits n s U T.
Proof. reflexivity. Qed.
Check C11_def_tree_hyps : forall n s h left right U T,
  tree_hyps n s h left right U T <->
  Inv n s /\ Inv n h /\ embeds s U /\ root U = left /\ embeds h T /\ root T = right
  /\ fits n s U T.
Print Assumptions C11_def_tree_hyps.

Theorem C11_def_path : forall g v p w,
  path g v p w <->
  match p with
  | [] => v = w
  | a :: r => exists x, op_kid g v a = (_ <- chk_v g v ;; Ok (Some x))
                        /\ mm_get (edg g v) a = Some x /\ path g x r w
  end.
Proof. exact path_unfold. Qed.
Check C11_def_path : forall g v p w,
  path g v p w <->
  match p with
  | [] => v = w
  | a :: r => exists x, op_kid g v a = (_ <- chk_v g v ;; Ok (Some x))
                        /\ mm_get (edg g v) a = Some x /\ path g x r w
  end.
Print Assumptions C11_def_path.

Theorem C11_def_calls : forall n s s',
  calls n s s' <-> exists ops rs, Forall prim_op ops /\ run n s ops = Ok (s', rs).
Proof. reflexivity. Qed.
Check C11_def_calls : forall n s s',
  calls n s s' <-> exists ops rs, Forall prim_op ops /\ run n s ops = Ok (s', rs).
Print Assumptions C11_def_calls.

Theorem C11_def_prim_op : forall o,
  prim_op o <-> match o with OAdd _ | OBind _ _ _ | OPut _ _ | ONext => True | _ => False end.
Proof. reflexivity. Qed.
Check C11_def_prim_op : forall o,
  prim_op o <-> match o with OAdd _ | OBind _ _ _ | OPut _ _ | ONext => True | _ => False end.
Print Assumptions C11_def_prim_op.

(** ** 1. the call returns (no panic, no [join()], no fuel problem), with the
    verdict C12 dictates: Ok(()) exactly when [h] has no present vertex
    outside [T]; the invariant and the capacity are kept *)

Theorem C11_ok : forall n s h left right U T,
  tree_hyps n s h left right U T ->
  exists s' m,
    op_merge_mapped n s h left right = Ok (s', m)
    /\ op_merge n s h left right = Ok (s', verdict h m)
    /\ (verdict h m = None <-> forall v, tag h v <> 0 -> In v (ids T))
    /\ Inv n s' /\ cap_of s' = cap_of s.
Proof. exact merge_trees_ok. Qed.
Check C11_ok : forall n s h left right U T,
  tree_hyps n s h left right U T ->
  exists s' m,
    op_merge_mapped n s h left right = Ok (s', m)
    /\ op_merge n s h left right = Ok (s', verdict h m)
    /\ (verdict h m = None <-> forall v, tag h v <> 0 -> In v (ids T))
    /\ Inv n s' /\ cap_of s' = cap_of s.
Print Assumptions C11_ok.

Theorem C11_total : forall n s h left right U T s' m,
  tree_hyps n s h left right U T -> op_merge_mapped n s h left right = Ok (s', m) ->
  forall u, In u (ids T) <-> map_get m u <> None.
Proof. exact cq_total. Qed.
Check C11_total : forall n s h left right U T s' m,
  tree_hyps n s h left right U T -> op_merge_mapped n s h left right = Ok (s', m) ->
  forall u, In u (ids T) <-> map_get m u <> None.
Print Assumptions C11_total.

Theorem C11_root : forall n s h left right U T s' m,
  tree_hyps n s h left right U T -> op_merge_mapped n s h left right = Ok (s', m) ->
  map_get m right = Some left.
Proof. exact cq_root. Qed.
Check C11_root : forall n s h left right U T s' m,
  tree_hyps n s h left right U T -> op_merge_mapped n s h left right = Ok (s', m) ->
  map_get m right = Some left.
Print Assumptions C11_root.

(** ** 2. paths and data *)

Theorem C11_paths : forall n s h left right U T s' m,
  tree_hyps n s h left right U T -> op_merge_mapped n s h left right = Ok (s', m) ->
  forall p u, path h right p u -> exists x, map_get m u = Some x /\ path s' left p x.
Proof. exact cq_paths. Qed.
Check C11_paths : forall n s h left right U T s' m,
  tree_hyps n s h left right U T -> op_merge_mapped n s h left right = Ok (s', m) ->
  forall p u, path h right p u -> exists x, map_get m u = Some x /\ path s' left p x.
Print Assumptions C11_paths.

Theorem C11_data : forall n s h left right U T s' m,
  tree_hyps n s h left right U T -> op_merge_mapped n s h left right = Ok (s', m) ->
  forall u x, map_get m u = Some x -> has_data h u = true ->
              has_data s' x = true /\ dat s' x = dat h u.
Proof. exact cq_data. Qed.
Check C11_data : forall n s h left right U T s' m,
  tree_hyps n s h left right U T -> op_merge_mapped n s h left right = Ok (s', m) ->
  forall u x, map_get m u = Some x -> has_data h u = true ->
              has_data s' x = true /\ dat s' x = dat h u.
Print Assumptions C11_data.

(** ** 3. distinct right vertices land on distinct left vertices *)

Theorem C11_injective : forall n s h left right U T s' m,
  tree_hyps n s h left right U T -> op_merge_mapped n s h left right = Ok (s', m) ->
  forall u1 u2 v, map_get m u1 = Some v -> map_get m u2 = Some v -> u1 = u2.
Proof. intros n s h left right U T s' m HY HM. exact (gp_inj (cp_g (merge_trees_unique HY HM))). Qed.
Check C11_injective : forall n s h left right U T s' m,
  tree_hyps n s h left right U T -> op_merge_mapped n s h left right = Ok (s', m) ->
  forall u1 u2 v, map_get m u1 = Some v -> map_get m u2 = Some v -> u1 = u2.
Print Assumptions C11_injective.

(** ** 4. everything [s] had is still there; only edges and data demanded
    by [h] are added *)

Theorem C11_frame_kept : forall n s h left right U T s' m,
  tree_hyps n s h left right U T -> op_merge_mapped n s h left right = Ok (s', m) ->
  forall v, tag s v <> 0 ->
    tag s' v <> 0
    /\ forall a w, mm_get (edg s v) a = Some w -> mm_get (edg s' v) a = Some w.
Proof. exact cq_kept. Qed.
Check C11_frame_kept : forall n s h left right U T s' m,
  tree_hyps n s h left right U T -> op_merge_mapped n s h left right = Ok (s', m) ->
  forall v, tag s v <> 0 ->
    tag s' v <> 0
    /\ forall a w, mm_get (edg s v) a = Some w -> mm_get (edg s' v) a = Some w.
Print Assumptions C11_frame_kept.

Theorem C11_frame_edges_added : forall n s h left right U T s' m,
  tree_hyps n s h left right U T -> op_merge_mapped n s h left right = Ok (s', m) ->
  forall v a x, tag s v <> 0 -> mm_get (edg s' v) a = Some x ->
                mm_get (edg s v) a = Some x \/ tag s x = 0.
Proof. intros n s h left right U T s' m HY HM. exact (mo_old (gp_mono (cp_g (merge_trees_unique HY HM)))). Qed.
Check C11_frame_edges_added : forall n s h left right U T s' m,
  tree_hyps n s h left right U T -> op_merge_mapped n s h left right = Ok (s', m) ->
  forall v a x, tag s v <> 0 -> mm_get (edg s' v) a = Some x ->
                mm_get (edg s v) a = Some x \/ tag s x = 0.
Print Assumptions C11_frame_edges_added.

Theorem C11_frame_untouched : forall n s h left right U T s' m,
  tree_hyps n s h left right U T -> op_merge_mapped n s h left right = Ok (s', m) ->
  forall v, tag s v <> 0 -> (forall u, map_get m u <> Some v) ->
            dat s' v = dat s v /\ prs s' v = prs s v /\ edg s' v = edg s v.
Proof. exact cq_untouched. Qed.
Check C11_frame_untouched : forall n s h left right U T s' m,
  tree_hyps n s h left right U T -> op_merge_mapped n s h left right = Ok (s', m) ->
  forall v, tag s v <> 0 -> (forall u, map_get m u <> Some v) ->
            dat s' v = dat s v /\ prs s' v = prs s v /\ edg s' v = edg s v.
Print Assumptions C11_frame_untouched.

Theorem C11_frame_image : forall n s h left right U T s' m,
  tree_hyps n s h left right U T -> op_merge_mapped n s h left right = Ok (s', m) ->
  forall v u, map_get m u = Some v ->
              tag s' v <> 0 /\ (In v (ids U) \/ (tag s v = 0 /\ g_next s <= v)).
Proof. intros n s h left right U T s' m HY HM v u. apply (gp_img (cp_g (merge_trees_unique HY HM))). Qed.
Check C11_frame_image : forall n s h left right U T s' m,
  tree_hyps n s h left right U T -> op_merge_mapped n s h left right = Ok (s', m) ->
  forall v u, map_get m u = Some v ->
              tag s' v <> 0 /\ (In v (ids U) \/ (tag s v = 0 /\ g_next s <= v)).
Print Assumptions C11_frame_image.

Theorem C11_frame_outside : forall n s h left right U T s' m,
  tree_hyps n s h left right U T -> op_merge_mapped n s h left right = Ok (s', m) ->
  forall v, tag s v <> 0 -> ~ In v (ids U) ->
            dat s' v = dat s v /\ prs s' v = prs s v /\ edg s' v = edg s v.
Proof. exact cq_outside. Qed.
Check C11_frame_outside : forall n s h left right U T s' m,
  tree_hyps n s h left right U T -> op_merge_mapped n s h left right = Ok (s', m) ->
  forall v, tag s v <> 0 -> ~ In v (ids U) ->
            dat s' v = dat s v /\ prs s' v = prs s v /\ edg s' v = edg s v.
Print Assumptions C11_frame_outside.

Theorem C11_frame_nodata : forall n s h left right U T s' m,
  tree_hyps n s h left right U T -> op_merge_mapped n s h left right = Ok (s', m) ->
  forall u x, map_get m u = Some x -> has_data h u = false -> tag s x <> 0 ->
              dat s' x = dat s x /\ prs s' x = prs s x.
Proof. intros n s h left right U T s' m HY HM. exact (gp_nodata (cp_g (merge_trees_unique HY HM))). Qed.
Check C11_frame_nodata : forall n s h left right U T s' m,
  tree_hyps n s h left right U T -> op_merge_mapped n s h left right = Ok (s', m) ->
  forall u x, map_get m u = Some x -> has_data h u = false -> tag s x <> 0 ->
              dat s' x = dat s x /\ prs s' x = prs s x.
Print Assumptions C11_frame_nodata.

(** ** 5. exactly one new vertex per path that [s] lacked, under an id that
    was absent *)

Theorem C11_fresh : forall n s h left right U T s' m,
  tree_hyps n s h left right U T -> op_merge_mapped n s h left right = Ok (s', m) ->
  forall v, tag s v = 0 -> tag s' v <> 0 ->
    g_next s <= v
    /\ exists u, In u (ids T) /\ map_get m u = Some v
                 /\ forall u', map_get m u' = Some v -> u' = u.
Proof. exact cq_new. Qed.
Check C11_fresh : forall n s h left right U T s' m,
  tree_hyps n s h left right U T -> op_merge_mapped n s h left right = Ok (s', m) ->
  forall v, tag s v = 0 -> tag s' v <> 0 ->
    g_next s <= v
    /\ exists u, In u (ids T) /\ map_get m u = Some v
                 /\ forall u', map_get m u' = Some v -> u' = u.
Print Assumptions C11_fresh.

(** the right vertex at the end of the path [p] is mapped to the end of [p] in
    [s] if [s] had it, to an absent vertex if not, to an old one only if it had *)
Theorem C11_fresh_iff : forall n s h left right U T s' m,
  tree_hyps n s h left right U T -> op_merge_mapped n s h left right = Ok (s', m) ->
  forall p u x, path h right p u -> map_get m u = Some x ->
    (forall w, path s left p w -> w = x)
    /\ ((~ exists w, path s left p w) -> tag s x = 0 /\ g_next s <= x)
    /\ (tag s x <> 0 -> path s left p x).
Proof. exact cq_fresh_iff. Qed.
Check C11_fresh_iff : forall n s h left right U T s' m,
  tree_hyps n s h left right U T -> op_merge_mapped n s h left right = Ok (s', m) ->
  forall p u x, path h right p u -> map_get m u = Some x ->
    (forall w, path s left p w -> w = x)
    /\ ((~ exists w, path s left p w) -> tag s x = 0 /\ g_next s <= x)
    /\ (tag s x <> 0 -> path s left p x).
Print Assumptions C11_fresh_iff.

(** ** 6. merge is a sequence of add/bind/put/next_id calls, for every run
    that returns, trees or not.  [calls n s s'] records that each call
    returned [Ok], not that it was within the limits and preconditions of
    C01-C03 ([bind] with distinct endpoints among them): a returning merge may
    issue [bind v v a] and end outside [Inv] ([MergePresent.merge_self_bind]).
    For the trees of parts 1-5, [C11_ok] gives [Inv] afterwards. *)

Theorem C11_as_calls : forall n s h left right s' r,
  op_merge n s h left right = Ok (s', r) -> calls n s s'.
Proof. exact op_merge_calls. Qed.
Check C11_as_calls : forall n s h left right s' r,
  op_merge n s h left right = Ok (s', r) -> calls n s s'.
Print Assumptions C11_as_calls.

Theorem C11_as_calls_rec : forall n h f s left right m s' m',
  merge_rec f n h s left right m = Ok (s', m') -> calls n s s'.
Proof. exact merge_rec_calls. Qed.
Check C11_as_calls_rec : forall n h f s left right m s' m',
  merge_rec f n h s left right m = Ok (s', m') -> calls n s s'.
Print Assumptions C11_as_calls_rec.

(** ** non-vacuity *)

Definition ex11_d : hex := HVector [7%N].

(** left: 0 -a-> 1 and an unrelated vertex 5; right: 0 -a-> 1, 0 -b-> 2 with data on 2 *)
Definition ex11_s_ops : list op := [OAdd 0; OAdd 1; OAdd 5; OBind 0 1 (Alpha 0)].
Definition ex11_h_ops : list op :=
  [OAdd 0; OAdd 1; OAdd 2; OBind 0 1 (Alpha 0); OBind 0 2 (Alpha 1); OPut 2 ex11_d].
Definition ex11_s : sodg := build 16 8 ex11_s_ops.
Definition ex11_h : sodg := build 16 8 ex11_h_ops.
Definition ex11_U : tree := Node 0 [(Alpha 0, Node 1 [])].
Definition ex11_T : tree := Node 0 [(Alpha 0, Node 1 []); (Alpha 1, Node 2 [])].

Example C11_ex_hyps : tree_hyps 16 ex11_s ex11_h 0 0 ex11_U ex11_T.
Proof.
  split; [apply (History.limitsb_inv 16 8 ex11_s_ops (op_empty 0)); vm_compute; reflexivity|].
  split; [apply (History.limitsb_inv 16 8 ex11_h_ops (op_empty 0)); vm_compute; reflexivity|].
  split.
  { split; [vm_compute; repeat split; discriminate|].
    vm_compute. repeat constructor; cbn; intuition discriminate. }
  split; [reflexivity|]. split.
  { split; [vm_compute; repeat split; discriminate|].
    vm_compute. repeat constructor; cbn; intuition discriminate. }
  split; [reflexivity|].
  split; [vm_compute; lia|]. split; [vm_compute; lia|].
  intros v Hv. vm_compute in Hv. destruct Hv as [<-|[<-|[]]]; vm_compute; lia.
Qed.

(** the existing path a is found (1 -> 1), the lacking path b is grafted as
    the new vertex 2, which receives the data; vertex 5 is untouched *)
Example C11_ex_result :
  exists s',
    op_merge 16 ex11_s ex11_h 0 0 = Ok (s', None)
    /\ op_merge_mapped 16 ex11_s ex11_h 0 0 = Ok (s', [(2, 2); (1, 1); (0, 0)])
    /\ edg s' 0 = [(Alpha 0, 1); (Alpha 1, 2)]
    /\ tag ex11_s 2 = 0 /\ tag s' 2 <> 0 /\ dat s' 2 = ex11_d /\ has_data s' 2 = true
    /\ op_keys s' = [0; 1; 2; 5].
Proof. eexists. vm_compute. repeat split; discriminate. Qed.

Example C11_ex_path :
  path ex11_h 0 [Alpha 1] 2 /\ ~ exists w, path ex11_s 0 [Alpha 1] w.
Proof.
  split; [vm_compute; eauto|]. intros (w & x & H & _). vm_compute in H. discriminate.
Qed.
