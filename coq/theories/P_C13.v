(** * C13  slice / slice_some keep exactly what is reachable

    Property text: slice(v) and slice_some(v,p) return a graph whose present
    vertices are exactly those reachable from v along edges (accepted by p),
    under their original ids.  It contains every accepted edge between kept
    vertices and no edge that the source lacks.  The source graph is unchanged
    and the call terminates on cyclic graphs.
    Quantifier: every reachable graph and start vertex v such that everything
    reachable from v is present and numbers at most 14 vertices, every
    predicate p over (from, to, label).

    Reading guide.
    - [op_slice_some n order g v p] (Slice.v) is the model of
      [slice_some(v, p)] on a [Sodg<n>]; [order] stands for the iteration order
      of [HashSet::drain] and may be any function that permutes its argument.
      The result [Ok ng] excludes a panic and [OutOfFuel] (the closure loop is
      fuelled in the model): "terminates on cyclic graphs".
    - The model is a function from the source [g] to the result; [g] itself is
      not an output, so "the source graph is unchanged" holds by construction
      (in Rust: [&self]); there is nothing to state.
    - [reach p g v u] (Reach.v): [u] is reachable from [v] along edges that [p]
      accepts ([C13_def_reach]); [pclosed p g v]: such paths stay inside the
      slots of the graph ([C13_def_pclosed]).  Presence is [tag _ w <> 0].
    - [Inv n g] (Inv.v) is the representation invariant (group tables and
      tags agree, labels of a vertex pairwise distinct and at most [n]).
    - "at most 14": every duplicate-free list of reachable vertices has at
      most 14 elements.  The proof gives 16 ([C13_slice_some_16]) and 17 is
      refuted ([C13_finding_bound]).
    - The hypothesis that everything reachable is *present* is not needed by
      any theorem below and is therefore not assumed (slice does not look at
      the tags of the source; it re-adds a collected vertex that is still the
      target of an edge).
    - Self loops.  [rebuild] calls [bind(v1, v2, k)] for every kept edge, also
      when [v1 = v2], which [bind] documents as forbidden; on a still
      ungrouped vertex this enters the vertex twice in a member list and
      breaks [Inv] ([C13_finding_selfloop]).  The theorems about arbitrary
      sources therefore assume that no kept vertex has an edge to itself.
      States reached through the interface within the limits never contain
      a self loop nor an edge that leaves the graph, so for them neither this
      hypothesis nor [pclosed] is needed: [C13_reachable_state].
    - The slice copies *all* source edges between kept vertices, also those
      that [p] rejected ([p] only steers which vertices are kept); this
      satisfies "every accepted edge between kept vertices and no edge that
      the source lacks", stated as [C13_accepted_edges_kept] and
      [C13_no_foreign_edge]; [C13_edges] is the exact edge set and
      [C13_slice_some] the exact edge lists (order included).
    - Data are not copied: every vertex of the slice is without data
      ([C13_no_data]); the property text does not speak about data.
    Proofs: the closure loop in SliceFacts.v, the rebuild loop and the general
    statement [slice_some_spec] in SliceFacts2.v; the theorems on [slice_some]
    below are its instances for a source inside [Inv], stated in SliceWeak.v
    ([..._from_weak]); [C13_slice] and [C13_reachable_state] are taken from
    SliceFacts2.v, [C13_slice_of_slice] from SliceTwice.v. *)

From Sodg Require Import SliceFacts2 SliceWeak SliceTwice.

(** ** the definitions the statements use, unfolded *)

Theorem C13_def_reach : forall p g v w,
  reach p g v w <->
  w = v \/ exists u a, reach p g v u /\ In (a, w) (edg g u) /\ p u w a = true.
Proof. exact reach_unfold. Qed.
Check C13_def_reach : forall p g v w,
  reach p g v w <->
  w = v \/ exists u a, reach p g v u /\ In (a, w) (edg g u) /\ p u w a = true.
Print Assumptions C13_def_reach.

Theorem C13_def_pclosed : forall p g v,
  pclosed p g v <->
  v < cap_of g /\
  forall u a w, reach p g v u -> In (a, w) (edg g u) -> p u w a = true -> w < cap_of g.
Proof. exact pclosed_unfold. Qed.
Check C13_def_pclosed : forall p g v,
  pclosed p g v <->
  v < cap_of g /\
  forall u a w, reach p g v u -> In (a, w) (edg g u) -> p u w a = true -> w < cap_of g.
Print Assumptions C13_def_pclosed.

(** ** the closure loop: terminates on every graph, in any iteration order,
    with exactly the reachable set *)

Theorem C13_closure : forall order p g v,
  (forall l, Permutation (order l) l) -> pclosed p g v ->
  exists done,
    closure (cap_of g + 2) order p g [] [v] = Ok done
    /\ NoDup done /\ (forall w, In w done <-> reach p g v w).
Proof. exact closure_correct. Qed.
Check C13_closure : forall order p g v,
  (forall l, Permutation (order l) l) -> pclosed p g v ->
  exists done,
    closure (cap_of g + 2) order p g [] [v] = Ok done
    /\ NoDup done /\ (forall w, In w done <-> reach p g v w).
Print Assumptions C13_closure.

(** ** slice_some *)

Theorem C13_slice_some : forall n order p g v,
  Inv n g -> (forall l, Permutation (order l) l) -> pclosed p g v ->
  (forall rs, NoDup rs -> (forall u, In u rs -> reach p g v u) -> length rs <= 14) ->
  (forall u a, reach p g v u -> ~ In (a, u) (edg g u)) ->
  exists ng,
    op_slice_some n order g v p = Ok ng
    /\ Inv n ng /\ cap_of ng = cap_of g
    /\ (forall w, tag ng w <> 0 <-> reach p g v w)
    /\ (exists kept : nat -> bool,
          (forall w, kept w = true <-> reach p g v w)
          /\ forall w, edg ng w =
                       if kept w then filter (fun e : label * nat => kept (snd e)) (edg g w) else [])
    /\ (forall w, prs ng w = PEmpty).
Proof. exact slice_some_correct_from_weak. Qed.
Check C13_slice_some : forall n order p g v,
  Inv n g -> (forall l, Permutation (order l) l) -> pclosed p g v ->
  (forall rs, NoDup rs -> (forall u, In u rs -> reach p g v u) -> length rs <= 14) ->
  (forall u a, reach p g v u -> ~ In (a, u) (edg g u)) ->
  exists ng,
    op_slice_some n order g v p = Ok ng
    /\ Inv n ng /\ cap_of ng = cap_of g
    /\ (forall w, tag ng w <> 0 <-> reach p g v w)
    /\ (exists kept : nat -> bool,
          (forall w, kept w = true <-> reach p g v w)
          /\ forall w, edg ng w =
                       if kept w then filter (fun e : label * nat => kept (snd e)) (edg g w) else [])
    /\ (forall w, prs ng w = PEmpty).
Print Assumptions C13_slice_some.

(** the same with the bound 16 (one full group) instead of 14 *)
Theorem C13_slice_some_16 : forall n order p g v,
  Inv n g -> (forall l, Permutation (order l) l) -> pclosed p g v ->
  (forall rs, NoDup rs -> (forall u, In u rs -> reach p g v u) -> length rs <= 16) ->
  (forall u a, reach p g v u -> ~ In (a, u) (edg g u)) ->
  exists ng (kept : nat -> bool),
    op_slice_some n order g v p = Ok ng
    /\ Inv n ng /\ cap_of ng = cap_of g
    /\ (forall w, kept w = true <-> reach p g v w)
    /\ (forall w, tag ng w <> 0 <-> reach p g v w)
    /\ (forall w, edg ng w =
                  if kept w then filter (fun e : label * nat => kept (snd e)) (edg g w) else [])
    /\ (forall w, prs ng w = PEmpty).
Proof. exact slice_some_correct_16_from_weak. Qed.
Check C13_slice_some_16 : forall n order p g v,
  Inv n g -> (forall l, Permutation (order l) l) -> pclosed p g v ->
  (forall rs, NoDup rs -> (forall u, In u rs -> reach p g v u) -> length rs <= 16) ->
  (forall u a, reach p g v u -> ~ In (a, u) (edg g u)) ->
  exists ng (kept : nat -> bool),
    op_slice_some n order g v p = Ok ng
    /\ Inv n ng /\ cap_of ng = cap_of g
    /\ (forall w, kept w = true <-> reach p g v w)
    /\ (forall w, tag ng w <> 0 <-> reach p g v w)
    /\ (forall w, edg ng w =
                  if kept w then filter (fun e : label * nat => kept (snd e)) (edg g w) else [])
    /\ (forall w, prs ng w = PEmpty).
Print Assumptions C13_slice_some_16.

(** the edges of the slice are the source edges between kept vertices *)
Theorem C13_edges : forall n order p g v ng,
  Inv n g -> (forall l, Permutation (order l) l) -> pclosed p g v ->
  (forall rs, NoDup rs -> (forall u, In u rs -> reach p g v u) -> length rs <= 14) ->
  (forall u a, reach p g v u -> ~ In (a, u) (edg g u)) ->
  op_slice_some n order g v p = Ok ng ->
  forall w a t,
    In (a, t) (edg ng w) <-> reach p g v w /\ In (a, t) (edg g w) /\ reach p g v t.
Proof. exact slice_some_edges_from_weak. Qed.
Check C13_edges : forall n order p g v ng,
  Inv n g -> (forall l, Permutation (order l) l) -> pclosed p g v ->
  (forall rs, NoDup rs -> (forall u, In u rs -> reach p g v u) -> length rs <= 14) ->
  (forall u a, reach p g v u -> ~ In (a, u) (edg g u)) ->
  op_slice_some n order g v p = Ok ng ->
  forall w a t,
    In (a, t) (edg ng w) <-> reach p g v w /\ In (a, t) (edg g w) /\ reach p g v t.
Print Assumptions C13_edges.

(** every accepted edge that starts at a kept vertex is in the slice, and its
    target is kept *)
Theorem C13_accepted_edges_kept : forall n order p g v ng,
  Inv n g -> (forall l, Permutation (order l) l) -> pclosed p g v ->
  (forall rs, NoDup rs -> (forall u, In u rs -> reach p g v u) -> length rs <= 14) ->
  (forall u a, reach p g v u -> ~ In (a, u) (edg g u)) ->
  op_slice_some n order g v p = Ok ng ->
  forall w a t, tag ng w <> 0 -> In (a, t) (edg g w) -> p w t a = true ->
    In (a, t) (edg ng w) /\ tag ng t <> 0.
Proof. exact slice_some_accepted_edges_kept_from_weak. Qed.
Check C13_accepted_edges_kept : forall n order p g v ng,
  Inv n g -> (forall l, Permutation (order l) l) -> pclosed p g v ->
  (forall rs, NoDup rs -> (forall u, In u rs -> reach p g v u) -> length rs <= 14) ->
  (forall u a, reach p g v u -> ~ In (a, u) (edg g u)) ->
  op_slice_some n order g v p = Ok ng ->
  forall w a t, tag ng w <> 0 -> In (a, t) (edg g w) -> p w t a = true ->
    In (a, t) (edg ng w) /\ tag ng t <> 0.
Print Assumptions C13_accepted_edges_kept.

(** every edge of the slice is an edge of the source, between kept vertices *)
Theorem C13_no_foreign_edge : forall n order p g v ng,
  Inv n g -> (forall l, Permutation (order l) l) -> pclosed p g v ->
  (forall rs, NoDup rs -> (forall u, In u rs -> reach p g v u) -> length rs <= 14) ->
  (forall u a, reach p g v u -> ~ In (a, u) (edg g u)) ->
  op_slice_some n order g v p = Ok ng ->
  forall w a t, In (a, t) (edg ng w) -> In (a, t) (edg g w) /\ tag ng w <> 0 /\ tag ng t <> 0.
Proof. exact slice_some_no_foreign_edge_from_weak. Qed.
Check C13_no_foreign_edge : forall n order p g v ng,
  Inv n g -> (forall l, Permutation (order l) l) -> pclosed p g v ->
  (forall rs, NoDup rs -> (forall u, In u rs -> reach p g v u) -> length rs <= 14) ->
  (forall u a, reach p g v u -> ~ In (a, u) (edg g u)) ->
  op_slice_some n order g v p = Ok ng ->
  forall w a t, In (a, t) (edg ng w) -> In (a, t) (edg g w) /\ tag ng w <> 0 /\ tag ng t <> 0.
Print Assumptions C13_no_foreign_edge.

(** no vertex of the slice carries data *)
Theorem C13_no_data : forall n order p g v ng,
  Inv n g -> (forall l, Permutation (order l) l) -> pclosed p g v ->
  (forall rs, NoDup rs -> (forall u, In u rs -> reach p g v u) -> length rs <= 14) ->
  (forall u a, reach p g v u -> ~ In (a, u) (edg g u)) ->
  op_slice_some n order g v p = Ok ng ->
  forall w, prs ng w = PEmpty /\ has_data ng w = false.
Proof. exact slice_some_no_data_from_weak. Qed.
Check C13_no_data : forall n order p g v ng,
  Inv n g -> (forall l, Permutation (order l) l) -> pclosed p g v ->
  (forall rs, NoDup rs -> (forall u, In u rs -> reach p g v u) -> length rs <= 14) ->
  (forall u a, reach p g v u -> ~ In (a, u) (edg g u)) ->
  op_slice_some n order g v p = Ok ng ->
  forall w, prs ng w = PEmpty /\ has_data ng w = false.
Print Assumptions C13_no_data.

(** ** slice *)

Theorem C13_slice : forall n order g v,
  Inv n g -> (forall l, Permutation (order l) l) -> closed g v ->
  (forall rs, NoDup rs -> (forall u, In u rs -> reach ptrue g v u) -> length rs <= 14) ->
  (forall u a, reach ptrue g v u -> ~ In (a, u) (edg g u)) ->
  exists ng,
    op_slice n order g v = Ok ng
    /\ Inv n ng /\ cap_of ng = cap_of g
    /\ (forall w, tag ng w <> 0 <-> reach ptrue g v w)
    /\ (forall w a t, In (a, t) (edg ng w) <-> reach ptrue g v w /\ In (a, t) (edg g w))
    /\ (forall w, reach ptrue g v w -> edg ng w = edg g w)
    /\ (forall w, prs ng w = PEmpty).
Proof. exact slice_correct. Qed.
Check C13_slice : forall n order g v,
  Inv n g -> (forall l, Permutation (order l) l) -> closed g v ->
  (forall rs, NoDup rs -> (forall u, In u rs -> reach ptrue g v u) -> length rs <= 14) ->
  (forall u a, reach ptrue g v u -> ~ In (a, u) (edg g u)) ->
  exists ng,
    op_slice n order g v = Ok ng
    /\ Inv n ng /\ cap_of ng = cap_of g
    /\ (forall w, tag ng w <> 0 <-> reach ptrue g v w)
    /\ (forall w a t, In (a, t) (edg ng w) <-> reach ptrue g v w /\ In (a, t) (edg g w))
    /\ (forall w, reach ptrue g v w -> edg ng w = edg g w)
    /\ (forall w, prs ng w = PEmpty).
Print Assumptions C13_slice.

(** ** the states of the property's quantifier: reached from the empty graph
    by calls within the limits ([within_limits], Spec.v).  No closedness and
    no self-loop hypothesis: they hold in every such state. *)

Theorem C13_reachable_state : forall n cap os g rs order p v,
  within_limits n cap sinit os -> run n (op_empty cap) os = Ok (g, rs) ->
  (forall l, Permutation (order l) l) -> v < cap ->
  (forall ks, NoDup ks -> (forall u, In u ks -> reach p g v u) -> length ks <= 14) ->
  exists ng,
    op_slice_some n order g v p = Ok ng
    /\ Inv n ng /\ cap_of ng = cap_of g
    /\ (forall w, tag ng w <> 0 <-> reach p g v w)
    /\ (forall w a t, In (a, t) (edg ng w) <-> reach p g v w /\ In (a, t) (edg g w) /\ reach p g v t)
    /\ (forall w, prs ng w = PEmpty).
Proof. exact slice_some_reachable. Qed.
Check C13_reachable_state : forall n cap os g rs order p v,
  within_limits n cap sinit os -> run n (op_empty cap) os = Ok (g, rs) ->
  (forall l, Permutation (order l) l) -> v < cap ->
  (forall ks, NoDup ks -> (forall u, In u ks -> reach p g v u) -> length ks <= 14) ->
  exists ng,
    op_slice_some n order g v p = Ok ng
    /\ Inv n ng /\ cap_of ng = cap_of g
    /\ (forall w, tag ng w <> 0 <-> reach p g v w)
    /\ (forall w a t, In (a, t) (edg ng w) <-> reach p g v w /\ In (a, t) (edg g w) /\ reach p g v t)
    /\ (forall w, prs ng w = PEmpty).
Print Assumptions C13_reachable_state.

(** ** non-vacuity *)

(** The example graph [ex_api] (SliceFacts2.v) is built by ten interface
    calls: vertices 0..3, data on 1, edges 0 -a1-> 1, 0 -a0-> 1, 1 -α-> 2,
    2 -a0-> 0 (a cycle with a parallel edge) and 3 -a0-> 0 (3 is not reachable
    from 0).  It satisfies every hypothesis of [C13_slice_some] for n = 4,
    start vertex 0, the iteration order [rev]; the slice is the graph that the
    seven calls below build: 3 is gone, the data of 1 is gone. *)
Example C13_example_cyclic :
  within_limits 4 5 sinit ex_api_calls
  /\ run 4 (op_empty 5) ex_api_calls = Ok (ex_api, snd (srun sinit ex_api_calls))
  /\ Inv 4 ex_api
  /\ (forall l : list nat, Permutation (rev l) l)
  /\ pclosed ptrue ex_api 0
  /\ (forall rs, NoDup rs -> (forall u, In u rs -> reach ptrue ex_api 0 u) -> length rs <= 14)
  /\ (forall u a, reach ptrue ex_api 0 u -> ~ In (a, u) (edg ex_api u))
  /\ has_data ex_api 1 = true
  /\ op_slice_some 4 (@rev nat) ex_api 0 ptrue =
       Ok (built 4 5 [OAdd 0; OAdd 1; OBind 0 1 (Alpha 1); OBind 0 1 (Alpha 0);
                      OAdd 2; OBind 1 2 (Greek 945); OBind 2 0 (Alpha 0)]).
Proof.
  destruct (ex_api_hyps ptrue) as (Hc & Hb & Hs).
  split; [apply within_limitsb_spec; vm_compute; reflexivity|].
  split; [vm_compute; reflexivity|].
  split; [exact ex_api_inv|].
  split; [exact rev_perm|].
  split; [exact Hc|]. split; [exact Hb|]. split; [exact Hs|].
  vm_compute. split; reflexivity.
Qed.

(** A predicate that rejects the edge 0 -a1-> 1: vertex 1 is still reached
    through 0 -a0-> 1, all three vertices are kept, and the rejected edge is
    copied as well (the slice is the same graph as above). *)
Example C13_example_other_path :
  let p : pred := fun _ _ a => negb (label_eqb a (Alpha 1)) in
  pclosed p ex_api 0
  /\ (forall rs, NoDup rs -> (forall u, In u rs -> reach p ex_api 0 u) -> length rs <= 14)
  /\ (forall u a, reach p ex_api 0 u -> ~ In (a, u) (edg ex_api u))
  /\ p 0 1 (Alpha 1) = false
  /\ reach p ex_api 0 1
  /\ exists ng, op_slice_some 4 (@rev nat) ex_api 0 p = Ok ng
       /\ op_keys ng = [0; 1; 2]
       /\ edg ng 0 = [(Alpha 1, 1); (Alpha 0, 1)].
Proof.
  cbv zeta.
  set (p := fun (_ _ : nat) (a : label) => negb (label_eqb a (Alpha 1))).
  destruct (ex_api_hyps p) as (Hc & Hb & Hs).
  split; [exact Hc|]. split; [exact Hb|]. split; [exact Hs|].
  split; [reflexivity|].
  split; [apply (reach_edge p ex_api 0 (Alpha 0) 1); [vm_compute; auto | reflexivity]|].
  eexists. split; [vm_compute; reflexivity|]. split; reflexivity.
Qed.

(** A predicate that rejects the only edge to 2: the slice keeps 0 and 1, and
    the edge 1 -α-> 2 is dropped because its target is not kept. *)
Example C13_example_cut :
  let p : pred := fun _ _ a => match a with Greek _ => false | _ => true end in
  pclosed p ex_api 0
  /\ ~ reach p ex_api 0 2
  /\ exists ng, op_slice_some 4 (@rev nat) ex_api 0 p = Ok ng
       /\ op_keys ng = [0; 1]
       /\ edg ng 0 = [(Alpha 1, 1); (Alpha 0, 1)] /\ edg ng 1 = [] /\ edg ng 2 = [].
Proof.
  cbv zeta.
  set (p := fun (_ _ : nat) (a : label) => match a with Greek _ => false | _ => true end).
  destruct (ex_api_hyps p) as (Hc & _).
  split; [exact Hc|]. split.
  { (* the closure loop returns 1 and 0 *)
    destruct (C13_closure (@rev nat) p ex_api 0 rev_perm Hc) as (d & E & _ & R).
    vm_compute in E. injection E as <-. intros H. apply R in H. destruct H as [H|[H|[]]]; discriminate. }
  eexists. split; [vm_compute; reflexivity|]. repeat split.
Qed.

(** ** findings, with evidence *)

(** a self loop in the source: slice returns a graph that violates the
    representation invariant (vertex 0 is listed twice in its group) *)
Example C13_finding_selfloop :
  exists ng, op_slice 4 (fun l => l) ex_selfloop 0 = Ok ng
    /\ tag ng 0 = 2 /\ members ng 2 = [0; 0] /\ edg ng 0 = [(Alpha 0, 0)]
    /\ ~ Inv 4 ng.
Proof. exact slice_selfloop. Qed.

(** 17 kept vertices: a state reachable within all limits, closed, without
    self loops, on which slice panics; with 16 it succeeds *)
Example C13_finding_bound :
  (within_limitsb 1 17 sinit (two_chains 16) = true
   /\ closedb (built 1 17 (two_chains 16)) = true
   /\ noselfb (built 1 17 (two_chains 16)) = true
   /\ op_slice 1 (fun l => l) (built 1 17 (two_chains 16)) 0 = Panic PStackFull)
  /\ (within_limitsb 1 16 sinit (two_chains 15) = true
      /\ is_ok (op_slice 1 (fun l => l) (built 1 16 (two_chains 15)) 0) = true).
Proof. split; [exact slice_chain_17 | exact slice_chain_16]. Qed.

(** ** the source need not satisfy the invariant

    The property text limits the sliced part ("everything reachable from v is
    present and numbers at most 14 vertices"), not the source.  [rebuild] reads
    the source through its edge lists and its capacity alone, so [Inv n g] can
    be replaced by what [Inv] says about edge lists ([src_edges_ok]: labels of
    a vertex pairwise distinct, at most [n] of them).  This covers states the
    real code reaches beyond the group limit, e.g. a pair bound while all 14
    group slots are taken (its vertices keep tag 1 although they have edges,
    and [Inv] fails: [C13_ex_beyond_limits]).  Proofs: [slice_some_spec] in
    SliceFacts2.v; the statements over [src_edges_ok] are in SliceWeak.v. *)

Theorem C13_def_src_edges_ok :
  forall n g, src_edges_ok n g <-> (forall v, NoDup (map fst (edg g v)) /\ length (edg g v) <= n).
Proof. exact (fun n g => conj (fun H => H) (fun H => H)). Qed.

Check C13_def_src_edges_ok :
  forall n g, src_edges_ok n g <-> (forall v, NoDup (map fst (edg g v)) /\ length (edg g v) <= n).
Print Assumptions C13_def_src_edges_ok.

Theorem C13_inv_src_edges_ok :
  forall n g, Inv n g -> src_edges_ok n g.
Proof. exact inv_src_edges_ok. Qed.

Check C13_inv_src_edges_ok :
  forall n g, Inv n g -> src_edges_ok n g.
Print Assumptions C13_inv_src_edges_ok.

Theorem C13_slice_some_any_source :
  forall n order p g v,
  src_edges_ok n g -> (forall l, Permutation (order l) l) -> pclosed p g v ->
  (forall rs, NoDup rs -> (forall u, In u rs -> reach p g v u) -> length rs <= 14) ->
  (forall u a, reach p g v u -> ~ In (a, u) (edg g u)) ->
  exists ng,
    op_slice_some n order g v p = Ok ng
    /\ Inv n ng /\ cap_of ng = cap_of g
    /\ (forall w, tag ng w <> 0 <-> reach p g v w)
    /\ (exists kept : nat -> bool,
          (forall w, kept w = true <-> reach p g v w)
          /\ forall w, edg ng w =
                       if kept w then filter (fun e : label * nat => kept (snd e)) (edg g w) else [])
    /\ (forall w, prs ng w = PEmpty).
Proof. exact slice_some_correct_weak. Qed.

Check C13_slice_some_any_source :
  forall n order p g v,
  src_edges_ok n g -> (forall l, Permutation (order l) l) -> pclosed p g v ->
  (forall rs, NoDup rs -> (forall u, In u rs -> reach p g v u) -> length rs <= 14) ->
  (forall u a, reach p g v u -> ~ In (a, u) (edg g u)) ->
  exists ng,
    op_slice_some n order g v p = Ok ng
    /\ Inv n ng /\ cap_of ng = cap_of g
    /\ (forall w, tag ng w <> 0 <-> reach p g v w)
    /\ (exists kept : nat -> bool,
          (forall w, kept w = true <-> reach p g v w)
          /\ forall w, edg ng w =
                       if kept w then filter (fun e : label * nat => kept (snd e)) (edg g w) else [])
    /\ (forall w, prs ng w = PEmpty).
Print Assumptions C13_slice_some_any_source.

Theorem C13_edges_any_source :
  forall n order p g v ng,
  src_edges_ok n g -> (forall l, Permutation (order l) l) -> pclosed p g v ->
  (forall rs, NoDup rs -> (forall u, In u rs -> reach p g v u) -> length rs <= 14) ->
  (forall u a, reach p g v u -> ~ In (a, u) (edg g u)) ->
  op_slice_some n order g v p = Ok ng ->
  forall w a t,
    In (a, t) (edg ng w) <-> reach p g v w /\ In (a, t) (edg g w) /\ reach p g v t.
Proof. exact slice_some_edges_weak. Qed.

Check C13_edges_any_source :
  forall n order p g v ng,
  src_edges_ok n g -> (forall l, Permutation (order l) l) -> pclosed p g v ->
  (forall rs, NoDup rs -> (forall u, In u rs -> reach p g v u) -> length rs <= 14) ->
  (forall u a, reach p g v u -> ~ In (a, u) (edg g u)) ->
  op_slice_some n order g v p = Ok ng ->
  forall w a t,
    In (a, t) (edg ng w) <-> reach p g v w /\ In (a, t) (edg g w) /\ reach p g v t.
Print Assumptions C13_edges_any_source.

Example C13_ex_beyond_limits :
  ~ Inv 16 ex_full
  /\ src_edges_ok 16 ex_full
  /\ (forall l : list nat, Permutation ((fun x => x) l) l)
  /\ pclosed ptrue ex_full 40
  /\ (forall rs, NoDup rs -> (forall u, In u rs -> reach ptrue ex_full 40 u) -> length rs <= 14)
  /\ (forall u a, reach ptrue ex_full 40 u -> ~ In (a, u) (edg ex_full u))
  /\ exists ng, op_slice 16 (fun x => x) ex_full 40 = Ok ng
       /\ Inv 16 ng
       /\ op_keys ng = [40; 41; 42]
       /\ edg ng 40 = [(Alpha 1, 41)] /\ edg ng 41 = [(Alpha 2, 42)] /\ edg ng 42 = []
       /\ tag ng 40 = 2 /\ tag ng 41 = 2 /\ tag ng 42 = 2
       /\ ng = built 16 48 [OAdd 40; OAdd 41; OBind 40 41 (Alpha 1); OAdd 42; OBind 41 42 (Alpha 2)].
Proof. exact slice_weak_example. Qed.

(** ** slicing a slice changes nothing (SliceTwice.v): the slice is closed
    under its own reachability, so [slice(v)] of it has the same present
    vertices and the same edges, for every enumeration order of either call *)

Theorem C13_slice_of_slice : forall n order order' g v,
  Inv n g -> (forall l, Permutation (order l) l) -> (forall l, Permutation (order' l) l) ->
  closed g v ->
  (forall rs, NoDup rs -> (forall u, In u rs -> reach ptrue g v u) -> length rs <= 14) ->
  (forall u a, reach ptrue g v u -> ~ In (a, u) (edg g u)) ->
  exists ng ng',
    op_slice n order g v = Ok ng /\ op_slice n order' ng v = Ok ng'
    /\ (forall w, tag ng' w <> 0 <-> tag ng w <> 0)
    /\ (forall w a t, In (a, t) (edg ng' w) <-> In (a, t) (edg ng w))
    /\ (forall w, tag ng w <> 0 -> edg ng' w = edg ng w)
    /\ (forall w, reach ptrue ng' v w <-> reach ptrue g v w)
    /\ (forall w, prs ng' w = PEmpty).
Proof. exact slice_twice. Qed.
Check C13_slice_of_slice : forall n order order' g v,
  Inv n g -> (forall l, Permutation (order l) l) -> (forall l, Permutation (order' l) l) ->
  closed g v ->
  (forall rs, NoDup rs -> (forall u, In u rs -> reach ptrue g v u) -> length rs <= 14) ->
  (forall u a, reach ptrue g v u -> ~ In (a, u) (edg g u)) ->
  exists ng ng',
    op_slice n order g v = Ok ng /\ op_slice n order' ng v = Ok ng'
    /\ (forall w, tag ng' w <> 0 <-> tag ng w <> 0)
    /\ (forall w a t, In (a, t) (edg ng' w) <-> In (a, t) (edg ng w))
    /\ (forall w, tag ng w <> 0 -> edg ng' w = edg ng w)
    /\ (forall w, reach ptrue ng' v w <-> reach ptrue g v w)
    /\ (forall w, prs ng' w = PEmpty).
Print Assumptions C13_slice_of_slice.

Theorem C13_reach_in_slice : forall g ng v,
  (forall w a t, In (a, t) (edg ng w) <-> reach ptrue g v w /\ In (a, t) (edg g w)) ->
  forall w, reach ptrue ng v w <-> reach ptrue g v w.
Proof. exact reach_slice_iff. Qed.
Check C13_reach_in_slice : forall g ng v,
  (forall w a t, In (a, t) (edg ng w) <-> reach ptrue g v w /\ In (a, t) (edg g w)) ->
  forall w, reach ptrue ng v w <-> reach ptrue g v w.
Print Assumptions C13_reach_in_slice.

(** non-vacuity: the cyclic example above, sliced twice with two different
    enumeration orders, is the same graph as sliced once *)
Example C13_example_slice_of_slice :
  match op_slice 4 (@rev nat) ex_api 0 with
  | Ok ng => op_slice 4 (fun l => l) ng 0 = Ok ng
  | _ => False
  end.
Proof. vm_compute. reflexivity. Qed.
