(** * P_C08: property C08 of the sodg verification.

    "save() followed by load() restores the graph: stores, branches and
    vertices come back exactly; only the allocator position [next_v]
    ([#[serde(skip)]]) is lost and is 0 afterwards."

    [encode] (Serial.v) is the byte image bincode writes, [psodg]/[decode]
    what bincode's deserializer and the container visitors do with it
    (results: a value and the unread bytes, end of input, another error, a
    panic of a visitor, or [DUnmod] for a number at or above the model's
    cut-off [lim]).  [n_edges] is the const generic [N] of [Sodg<N>].

    [wf_image_state lim n_edges g] is defined in SerialFacts.v and written
    out by [C08_def_wf_image_state]: what the Rust types guarantee (every
    [usize]/length below 2^64, [u8] bytes, [char] scalar values, eight array
    entries), the crate's invariants ([Hex::Bytes] length at most 8, at most
    16 members per group, at most [N] edges with distinct labels per vertex),
    and that every number the decoder turns into a [nat] is below [lim].
    [wf_hex] is in Hex.v, [wf_label] in Label.v.

    The round trip itself is proved in SerialFacts.v; what follows from it
    for reachable states, later calls and repeated save+load is in Wf.v,
    NextIrrelevant.v and SerialMore.v. *)

From Sodg Require Import Serial SerialFacts Wf NextIrrelevant SerialMore.

Theorem C08_def_wf_image_state :
  forall lim n_edges g,
    wf_image_state lim n_edges g <->
    (lim <= 18446744073709551616)%N /\
    (N.of_nat n_edges < 18446744073709551616)%N /\
    (N.of_nat (length (g_stores g)) < lim)%N /\
    (N.of_nat (length (g_branches g)) < lim)%N /\
    (N.of_nat (length (g_vertices g)) < lim)%N /\
    Forall (fun c => (N.of_nat c < lim)%N) (g_stores g) /\
    Forall (fun m => length m <= 16 /\ Forall (fun v => (N.of_nat v < lim)%N) m)
           (g_branches g) /\
    Forall (fun x =>
              (N.of_nat (v_branch x) < lim)%N /\
              (wf_hex (v_data x) = true /\
               match v_data x with
               | HVector l => (N.of_nat (length l) < 18446744073709551616)%N
               | HBytes _ k => (N.of_nat k < lim)%N
               end) /\
              NoDup (map fst (v_edges x)) /\
              length (v_edges x) <= n_edges /\
              Forall (fun e => wf_label (fst e) = true /\ (N.of_nat (snd e) < lim)%N)
                     (v_edges x))
           (g_vertices g).
Proof. reflexivity. Qed.

Check C08_def_wf_image_state :
  forall lim n_edges g,
    wf_image_state lim n_edges g <->
    (lim <= 18446744073709551616)%N /\
    (N.of_nat n_edges < 18446744073709551616)%N /\
    (N.of_nat (length (g_stores g)) < lim)%N /\
    (N.of_nat (length (g_branches g)) < lim)%N /\
    (N.of_nat (length (g_vertices g)) < lim)%N /\
    Forall (fun c => (N.of_nat c < lim)%N) (g_stores g) /\
    Forall (fun m => length m <= 16 /\ Forall (fun v => (N.of_nat v < lim)%N) m)
           (g_branches g) /\
    Forall (fun x =>
              (N.of_nat (v_branch x) < lim)%N /\
              (wf_hex (v_data x) = true /\
               match v_data x with
               | HVector l => (N.of_nat (length l) < 18446744073709551616)%N
               | HBytes _ k => (N.of_nat k < lim)%N
               end) /\
              NoDup (map fst (v_edges x)) /\
              length (v_edges x) <= n_edges /\
              Forall (fun e => wf_label (fst e) = true /\ (N.of_nat (snd e) < lim)%N)
                     (v_edges x))
           (g_vertices g).
Print Assumptions C08_def_wf_image_state.

Theorem C08_wf_reflect :
  forall lim n_edges g,
    wf_image_stateb lim n_edges g = true <-> wf_image_state lim n_edges g.
Proof. exact wf_image_stateb_spec. Qed.

Check C08_wf_reflect :
  forall lim n_edges g,
    wf_image_stateb lim n_edges g = true <-> wf_image_state lim n_edges g.
Print Assumptions C08_wf_reflect.

Theorem C08_roundtrip :
  forall lim n g rest,
    wf_image_state lim n g ->
    psodg lim n (encode g ++ rest)
    = DOk (mkG (g_stores g) (g_branches g) (g_vertices g) 0) rest.
Proof. intros lim n g rest H. exact (psodg_rt lim n g H rest). Qed.

Check C08_roundtrip :
  forall lim n g rest,
    wf_image_state lim n g ->
    psodg lim n (encode g ++ rest)
    = DOk (mkG (g_stores g) (g_branches g) (g_vertices g) 0) rest.
Print Assumptions C08_roundtrip.

Theorem C08_load_save :
  forall lim n g,
    wf_image_state lim n g ->
    decode lim n (encode g)
    = LOk (mkG (g_stores g) (g_branches g) (g_vertices g) 0).
Proof. exact load_save. Qed.

Check C08_load_save :
  forall lim n g,
    wf_image_state lim n g ->
    decode lim n (encode g)
    = LOk (mkG (g_stores g) (g_branches g) (g_vertices g) 0).
Print Assumptions C08_load_save.

(** the cut-off [lim] of the model plays no role once it is above every
    number of the state *)
Theorem C08_lim_irrelevant :
  forall lim lim' n g rest,
    wf_image_state lim n g ->
    (lim <= lim')%N -> (lim' <= 18446744073709551616)%N ->
    psodg lim' n (encode g ++ rest) = psodg lim n (encode g ++ rest).
Proof.
  intros lim lim' n g rest H Hl Hl'. rewrite (psodg_rt lim n g H).
  apply psodg_rt. eapply wf_image_state_mono; eauto.
Qed.

Check C08_lim_irrelevant :
  forall lim lim' n g rest,
    wf_image_state lim n g ->
    (lim <= lim')%N -> (lim' <= 18446744073709551616)%N ->
    psodg lim' n (encode g ++ rest) = psodg lim n (encode g ++ rest).
Print Assumptions C08_lim_irrelevant.

Theorem C08_lim_irrelevant_load :
  forall lim lim' n g,
    wf_image_state lim n g ->
    (lim <= lim')%N -> (lim' <= 18446744073709551616)%N ->
    decode lim' n (encode g) = decode lim n (encode g).
Proof.
  intros lim lim' n g H Hl Hl'. unfold decode. rewrite <- (app_nil_r (encode g)).
  rewrite (C08_lim_irrelevant lim lim') by assumption. reflexivity.
Qed.

Check C08_lim_irrelevant_load :
  forall lim lim' n g,
    wf_image_state lim n g ->
    (lim <= lim')%N -> (lim' <= 18446744073709551616)%N ->
    decode lim' n (encode g) = decode lim n (encode g).
Print Assumptions C08_lim_irrelevant_load.

Theorem C08_trailing_ignored :
  forall lim n g rest,
    wf_image_state lim n g ->
    decode lim n (encode g ++ rest) = decode lim n (encode g).
Proof.
  intros lim n g rest H. rewrite (load_save lim n g H). unfold decode.
  rewrite (psodg_rt lim n g H). reflexivity.
Qed.

Check C08_trailing_ignored :
  forall lim n g rest,
    wf_image_state lim n g ->
    decode lim n (encode g ++ rest) = decode lim n (encode g).
Print Assumptions C08_trailing_ignored.

(** ** non-vacuity: [example_graph] is described in SerialFacts.v *)

Example C08_example_wf : wf_image_state 1048576 4 example_graph.
Proof. exact example_wf. Qed.

Example C08_example_wf_tight : wf_image_state 4 3 example_graph.
Proof. apply wf_image_stateb_spec. vm_compute. reflexivity. Qed.

Example C08_example_image_size : length (encode example_graph) = 383.
Proof. exact example_image_size. Qed.

Example C08_example_load :
  decode 1048576 4 (encode example_graph) = LOk (set_next example_graph 0).
Proof. exact (C08_load_save _ _ _ C08_example_wf). Qed.

Example C08_example_next_lost :
  g_next example_graph = 3 /\
  decode 1048576 4 (encode example_graph) <> LOk example_graph.
Proof. split; [reflexivity|]. rewrite C08_example_load. discriminate. Qed.

(** ** every graph reachable through the interface satisfies the hypothesis *)

Theorem C08_reachable_graphs :
  forall n cap os lim,
  within_limits n cap sinit os -> Forall wf_op os ->
  (16 < lim)%N -> (N.of_nat cap < lim)%N -> (lim <= two64)%N -> (N.of_nat n < two64)%N ->
  exists g, run n (op_empty cap) os = Ok (g, snd (srun sinit os))
    /\ decode lim n (encode g) = LOk (mkG (g_stores g) (g_branches g) (g_vertices g) 0)
    /\ forall k, k < length (encode g) -> decode lim n (firstn k (encode g)) = LErr.
Proof. exact reachable_roundtrip. Qed.

Check C08_reachable_graphs :
  forall n cap os lim,
  within_limits n cap sinit os -> Forall wf_op os ->
  (16 < lim)%N -> (N.of_nat cap < lim)%N -> (lim <= two64)%N -> (N.of_nat n < two64)%N ->
  exists g, run n (op_empty cap) os = Ok (g, snd (srun sinit os))
    /\ decode lim n (encode g) = LOk (mkG (g_stores g) (g_branches g) (g_vertices g) 0)
    /\ forall k, k < length (encode g) -> decode lim n (firstn k (encode g)) = LErr.
Print Assumptions C08_reachable_graphs.

Theorem C08_invariant_states_are_wellformed :
  forall n g lim,
  Inv n g -> Wf g ->
  (16 < lim)%N -> (N.of_nat (cap_of g) < lim)%N -> (lim <= two64)%N -> (N.of_nat n < two64)%N ->
  wf_image_state lim n g.
Proof. exact inv_wf_image. Qed.

Check C08_invariant_states_are_wellformed :
  forall n g lim,
  Inv n g -> Wf g ->
  (16 < lim)%N -> (N.of_nat (cap_of g) < lim)%N -> (lim <= two64)%N -> (N.of_nat n < two64)%N ->
  wf_image_state lim n g.
Print Assumptions C08_invariant_states_are_wellformed.

Theorem C08_def_wf_op :
  forall o, wf_op o <-> match o with
                        | OBind _ _ a => wf_label a = true
                        | OPut _ d => wf_hex d = true /\ hex_small d
                        | _ => True
                        end.
Proof. intros o. reflexivity. Qed.

Check C08_def_wf_op :
  forall o, wf_op o <-> match o with
                        | OBind _ _ a => wf_label a = true
                        | OPut _ d => wf_hex d = true /\ hex_small d
                        | _ => True
                        end.
Print Assumptions C08_def_wf_op.

(** ** "behaves identically under any subsequent sequence of calls" *)

Theorem C08_same_future :
  forall n os g k, no_next os ->
  run n (renext k g) os = omap (fun r : sodg * list res => (renext k (fst r), snd r)) (run n g os).
Proof. exact run_next. Qed.

Check C08_same_future :
  forall n os g k, no_next os ->
  run n (renext k g) os = omap (fun r : sodg * list res => (renext k (fst r), snd r)) (run n g os).
Print Assumptions C08_same_future.

Theorem C08_def_renext : forall k g, renext k g = mkG (g_stores g) (g_branches g) (g_vertices g) k.
Proof. intros k g. reflexivity. Qed.

Check C08_def_renext : forall k g, renext k g = mkG (g_stores g) (g_branches g) (g_vertices g) k.
Print Assumptions C08_def_renext.

Theorem C08_def_no_next : forall os, no_next os <-> Forall (fun o => o <> ONext) os.
Proof. intros os. reflexivity. Qed.

Check C08_def_no_next : forall os, no_next os <-> Forall (fun o => o <> ONext) os.
Print Assumptions C08_def_no_next.

(** next_id() on a graph whose allocator position is 0 (as after load())
    returns the lowest absent id *)
Theorem C08_next_id_restarts_from_lowest_absent :
  forall g, g_next g = 0 -> (exists id, id < cap_of g /\ tag g id = 0) ->
  exists id, op_next_id g = Ok (set_next g (S id), id) /\ id < cap_of g /\ tag g id = 0
             /\ forall w, w < id -> tag g w <> 0.
Proof.
  intros g Hz (x & X1 & X2).
  destruct (next_id_effect g) as (id & A & _ & B & C & D).
  { exists x. rewrite Hz. repeat split; auto. lia. }
  exists id. repeat split; auto. intros w Hw. apply D; [rewrite Hz; lia|exact Hw].
Qed.

Check C08_next_id_restarts_from_lowest_absent :
  forall g, g_next g = 0 -> (exists id, id < cap_of g /\ tag g id = 0) ->
  exists id, op_next_id g = Ok (set_next g (S id), id) /\ id < cap_of g /\ tag g id = 0
             /\ forall w, w < id -> tag g w <> 0.
Print Assumptions C08_next_id_restarts_from_lowest_absent.

(** ** generations of save+load, and what the image determines (SerialMore.v) *)

Theorem C08_image_ignores_allocator :
  forall k g, encode (renext k g) = encode g.
Proof. exact encode_renext. Qed.

Check C08_image_ignores_allocator :
  forall k g, encode (renext k g) = encode g.
Print Assumptions C08_image_ignores_allocator.

(** what load() returns satisfies the hypothesis again and is saved to the very same bytes *)
Theorem C08_save_load_save :
  forall lim n g g',
    wf_image_state lim n g ->
    decode lim n (encode g) = LOk g' ->
    g' = renext 0 g /\ encode g' = encode g /\ wf_image_state lim n g'
    /\ decode lim n (encode g') = LOk g'.
Proof. exact save_load_save. Qed.

Check C08_save_load_save :
  forall lim n g g',
    wf_image_state lim n g ->
    decode lim n (encode g) = LOk g' ->
    g' = renext 0 g /\ encode g' = encode g /\ wf_image_state lim n g'
    /\ decode lim n (encode g') = LOk g'.
Print Assumptions C08_save_load_save.

Theorem C08_def_generations :
  forall lim n k g,
    generations lim n k g =
    match k with
    | 0 => LOk g
    | S k' => match decode lim n (encode g) with
              | LOk g' => generations lim n k' g'
              | e => e
              end
    end.
Proof. exact generations_def. Qed.

Check C08_def_generations :
  forall lim n k g,
    generations lim n k g =
    match k with
    | 0 => LOk g
    | S k' => match decode lim n (encode g) with
              | LOk g' => generations lim n k' g'
              | e => e
              end
    end.
Print Assumptions C08_def_generations.

(** any number (at least one) of save+load generations gives the graph the first one gave *)
Theorem C08_generations_stable :
  forall lim n g k,
    wf_image_state lim n g -> generations lim n (S k) g = LOk (renext 0 g).
Proof. exact generations_stable. Qed.

Check C08_generations_stable :
  forall lim n g k,
    wf_image_state lim n g -> generations lim n (S k) g = LOk (renext 0 g).
Print Assumptions C08_generations_stable.

(** two graphs have the same image exactly when they differ in the allocator position only *)
Theorem C08_image_determines_graph :
  forall lim n g1 g2,
    wf_image_state lim n g1 -> wf_image_state lim n g2 ->
    encode g1 = encode g2 <-> renext 0 g1 = renext 0 g2.
Proof. exact encode_inj_renext. Qed.

Check C08_image_determines_graph :
  forall lim n g1 g2,
    wf_image_state lim n g1 -> wf_image_state lim n g2 ->
    encode g1 = encode g2 <-> renext 0 g1 = renext 0 g2.
Print Assumptions C08_image_determines_graph.

Example C08_generations_example :
  generations 1048576 4 1 example_graph = LOk (renext 0 example_graph)
  /\ generations 1048576 4 3 example_graph = LOk (renext 0 example_graph)
  /\ renext 0 example_graph <> example_graph.
Proof. exact generations_example. Qed.
