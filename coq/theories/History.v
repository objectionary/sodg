(** * History: whole call sequences.

    The simulation of Refine.v lifted to runs ([sim_run_with], [sim_run]) and a
    computable check of the limits for concrete sequences; the rules of the
    reference model call by call, as C01-C03 quote them; then what holds along
    every reference run within the limits: present ids stay below the bound
    ([bounded]), the members of a group are linked by the bind calls made so
    far ([J], for C01), the ids handed out increase (C05), and a cycle of
    create / fill / read / collect leaves the alive groups as they were (C06).
    HistoryThms.v carries these statements over to the model of the code. *)

From Sodg Require Export Refine Shape.
From Sodg Require Import SpecDec.
From Coq Require Import Permutation Sorted.

Lemma srun_cons s o t :
  srun s (o :: t) = (fst (srun (fst (sstep s o)) t), snd (sstep s o) :: snd (srun (fst (sstep s o)) t)).
Proof.
  cbn [srun]. destruct (sstep s o) as [s1 r]. cbn [fst snd]. destruct (srun s1 t) as [s2 rs]. reflexivity.
Qed.

Lemma srun_app s os1 os2 :
  srun s (os1 ++ os2) =
  (fst (srun (fst (srun s os1)) os2), snd (srun s os1) ++ snd (srun (fst (srun s os1)) os2)).
Proof.
  revert s; induction os1 as [|o t IH]; intros s; cbn [app].
  - cbn [srun fst snd app]. destruct (srun s os2); reflexivity.
  - rewrite !srun_cons, IH. reflexivity.
Qed.

Lemma within_limits_app n cap s os1 os2 :
  within_limits n cap s (os1 ++ os2) <->
  within_limits n cap s os1 /\ within_limits n cap (fst (srun s os1)) os2.
Proof.
  revert s; induction os1 as [|o t IH]; intros s; cbn [app within_limits].
  - cbn [srun fst]. tauto.
  - rewrite IH, srun_cons. cbn [fst]. tauto.
Qed.

Lemma within_limits_firstn n cap s os k :
  within_limits n cap s os -> within_limits n cap s (firstn k os).
Proof.
  intros H. rewrite <- (firstn_skipn k os) in H. apply within_limits_app in H. apply H.
Qed.

(** ** the simulation over a whole sequence *)

(** ... carrying along a property [P] of states that every call within its
    concrete precondition hands on when its arguments are in [Q] *)
Theorem sim_run_with n (Q : op -> Prop) (P : sodg -> Prop) :
  (forall g o g' r, Inv n g -> cpre n g o -> Q o -> P g -> step n g o = Ok (g', r) -> P g') ->
  forall os g s,
  Inv n g -> R g s -> P g -> within_limits n (cap_of g) s os -> Forall Q os ->
  exists g', run n g os = Ok (g', snd (srun s os))
             /\ Inv n g' /\ P g' /\ R g' (fst (srun s os)) /\ cap_of g' = cap_of g.
Proof.
  intros Hstep. induction os as [|o t IH]; intros g s HI HR HP HW HQ.
  - exists g. cbn. auto.
  - destruct HW as [Hp HW]. inversion HQ as [|? ? Ho HQ']; subst.
    destruct (sim_step n g s o HI HR Hp) as (g1 & A & I1 & R1).
    pose proof (Hstep g o g1 _ HI (pre_cpre n g s o HI HR Hp) Ho HP A) as P1.
    pose proof (step_shape n g o g1 _ A) as (C1 & _).
    rewrite <- C1 in HW.
    destruct (IH g1 _ I1 R1 P1 HW HQ') as (g2 & A2 & I2 & P2 & R2 & C2).
    exists g2. split; [|split; [exact I2|split; [exact P2|split; [|congruence]]]].
    + rewrite srun_cons. cbn [run fst snd]. rewrite A. cbn [obind fst snd]. rewrite A2. reflexivity.
    + rewrite srun_cons. exact R2.
Qed.

Theorem sim_run n : forall os g s,
  Inv n g -> R g s -> within_limits n (cap_of g) s os ->
  exists g', run n g os = Ok (g', snd (srun s os))
             /\ Inv n g' /\ R g' (fst (srun s os)) /\ cap_of g' = cap_of g.
Proof.
  intros os g s HI HR HW.
  destruct (sim_run_with n (fun _ => True) (fun _ => True) (fun _ _ _ _ _ _ _ _ _ => I) os g s HI HR I HW)
    as (g' & A & I' & _ & H); [apply Forall_forall; intros; exact I|].
  exists g'. auto.
Qed.

Corollary sim_run_empty n cap os :
  within_limits n cap sinit os ->
  exists g', run n (op_empty cap) os = Ok (g', snd (srun sinit os))
             /\ Inv n g' /\ R g' (fst (srun sinit os)) /\ cap_of g' = cap.
Proof.
  intros HW. rewrite <- (cap_empty cap) in HW.
  destruct (sim_run n os (op_empty cap) sinit (inv_empty n cap) (R_init cap) HW) as (g' & A & I & HR & C).
  exists g'. rewrite cap_empty in C. auto.
Qed.

(** ** a computable check of the limits, for concrete call sequences *)

Fixpoint limitsb (n cap : nat) (s : spec) (os : list op) : bool :=
  match os with
  | [] => true
  | o :: t => preb n cap s o && limitsb n cap (fst (sstep s o)) t
  end.

Lemma limitsb_ok n cap : forall os s,
  limitsb n cap s os = true -> within_limits n cap s os.
Proof.
  induction os as [|o t IH]; intros s H; cbn [limitsb] in H; [exact I|].
  apply andb_true_iff in H as [H1 H2]. split; [apply preb_spec; exact H1|exact (IH _ H2)].
Qed.

(** the graph such a sequence builds from the empty one ([d]: whatever stands
    for a failed run) *)
Lemma limitsb_inv n cap os d :
  limitsb n cap sinit os = true ->
  Inv n (match run n (op_empty cap) os with Ok (g, _) => g | _ => d end).
Proof.
  intros H. destruct (sim_run_empty n cap os (limitsb_ok n cap os sinit H)) as (g' & A & I' & _).
  rewrite A. exact I'.
Qed.

(** ** the rules of the reference model, call by call *)

Section SpecRules.
  Variable s : spec.

  Lemma spec_add_present v : s_present s v = true -> sstep s (OAdd v) = (s, RUnit).
  Proof. intros H. cbn [sstep]. rewrite H. reflexivity. Qed.

  Lemma spec_add_absent v :
    s_present s v = false ->
    let s' := fst (sstep s (OAdd v)) in
    s_present s' v = true /\ s_grp s' v = None /\ s_unread s' v = false
    /\ s_edges s' v = [] /\ s_data s' v = None
    /\ (forall w, w <> v -> s_present s' w = s_present s w /\ s_grp s' w = s_grp s w
                            /\ s_unread s' w = s_unread s w /\ s_edges s' w = s_edges s w
                            /\ s_data s' w = s_data s w)
    /\ s_alloc s' = s_alloc s.
  Proof.
    intros H. cbn [sstep]. rewrite H. cbn [fst s_present s_grp s_unread s_edges s_data s_alloc].
    rewrite !fupd_eq. repeat split; auto; apply fupd_neq; assumption.
  Qed.

  (** bind changes the grouping, the edges of [v1] and the name counter, nothing else *)
  Lemma spec_bind_frame v1 v2 a :
    exists grp' fresh',
      sstep s (OBind v1 v2 a) =
      (mkS (s_bound s) (s_present s) grp' (s_unread s)
           (fupd (s_edges s) v1 (spec_insert (s_edges s v1) a v2)) (s_data s) (s_alloc s) fresh', RUnit).
  Proof. cbn [sstep]. destruct (s_grp s v1), (s_grp s v2); eauto. Qed.

  Lemma spec_bind_present v1 v2 a w :
    s_present (fst (sstep s (OBind v1 v2 a))) w = s_present s w.
  Proof. destruct (spec_bind_frame v1 v2 a) as (? & ? & ->). reflexivity. Qed.

  Lemma spec_bind_uu v1 v2 a :
    s_grp s v1 = None -> s_grp s v2 = None ->
    let s' := fst (sstep s (OBind v1 v2 a)) in
    s_grp s' v1 = Some (s_fresh s) /\ s_grp s' v2 = Some (s_fresh s)
    /\ (forall w, w <> v1 -> w <> v2 -> s_grp s' w = s_grp s w).
  Proof.
    intros G1 G2. cbn [sstep]. rewrite G1, G2. cbn [fst s_grp]. split; [|split; [apply fupd_eq|]].
    - destruct (Nat.eq_dec v1 v2) as [->|N]; [|rewrite (fupd_neq _ _ _ _ N)]; apply fupd_eq.
    - intros w H1 H2. rewrite !fupd_neq by assumption. reflexivity.
  Qed.

  Lemma spec_bind_ug v1 v2 a k :
    s_grp s v1 = None -> s_grp s v2 = Some k ->
    let s' := fst (sstep s (OBind v1 v2 a)) in
    s_grp s' v1 = Some k /\ (forall w, w <> v1 -> s_grp s' w = s_grp s w).
  Proof.
    intros G1 G2. cbn [sstep]. rewrite G1, G2. split; [apply fupd_eq|]. intros w. apply fupd_neq.
  Qed.

  Lemma spec_bind_gu v1 v2 a k :
    s_grp s v1 = Some k -> s_grp s v2 = None ->
    let s' := fst (sstep s (OBind v1 v2 a)) in
    s_grp s' v2 = Some k /\ (forall w, w <> v2 -> s_grp s' w = s_grp s w).
  Proof.
    intros G1 G2. cbn [sstep]. rewrite G1, G2. split; [apply fupd_eq|]. intros w. apply fupd_neq.
  Qed.

  Lemma spec_bind_gg v1 v2 a k1 k2 :
    s_grp s v1 = Some k1 -> s_grp s v2 = Some k2 ->
    forall w, s_grp (fst (sstep s (OBind v1 v2 a))) w = s_grp s w.
  Proof. intros G1 G2 w. cbn [sstep]. rewrite G1, G2. reflexivity. Qed.

  Lemma spec_put_present v d w : s_present (fst (sstep s (OPut v d))) w = s_present s w.
  Proof. reflexivity. Qed.

  (** a read changes the present set, the grouping and the unread flags only *)
  Lemma spec_data_frame v :
    let s' := fst (sstep s (OData v)) in
    s_bound s' = s_bound s /\ s_edges s' = s_edges s /\ s_data s' = s_data s
    /\ s_alloc s' = s_alloc s /\ s_fresh s' = s_fresh s.
  Proof. rewrite sstep_data. destruct (collects s v); [|destruct (s_unread s v)]; cbn; auto. Qed.

  Lemma spec_data_shrinks v w :
    s_present (fst (sstep s (OData v))) w = true ->
    s_present s w = true /\ s_grp (fst (sstep s (OData v))) w = s_grp s w.
  Proof.
    rewrite sstep_data. destruct (collects s v) as [k|]; [|destruct (s_unread s v); auto].
    cbn [fst mark_read without s_present s_grp]. destruct (in_group s k w); [discriminate|auto].
  Qed.

  Lemma spec_data_unread v w :
    s_unread (fst (sstep s (OData v))) w = if v =? w then false else s_unread s w.
  Proof.
    rewrite sstep_data. destruct (collects s v); [reflexivity|].
    destruct (s_unread s v) eqn:U; [reflexivity|]. cbn [fst].
    destruct (Nat.eqb_spec v w) as [<-|]; [exact U|reflexivity].
  Qed.

  (** a read that is not the first since the put, or of a vertex without
      data, changes nothing *)
  Lemma spec_data_noop v : s_unread s v = false -> fst (sstep s (OData v)) = s.
  Proof. intros H. rewrite sstep_data. unfold collects. rewrite H. reflexivity. Qed.

  Lemma spec_data_ungrouped v w :
    s_grp s v = None -> s_present (fst (sstep s (OData v))) w = s_present s w.
  Proof.
    intros G. rewrite sstep_data. unfold collects. rewrite G. destruct (s_unread s v); reflexivity.
  Qed.

  Lemma spec_data_keep v k w :
    s_grp s v = Some k ->
    (exists m, In m (group_members s k) /\ m <> v /\ s_unread s m = true) ->
    s_present (fst (sstep s (OData v))) w = s_present s w.
  Proof.
    intros G (m & Hm & Hne & Um). rewrite sstep_data.
    destruct (collects s v) as [k'|] eqn:C; [|destruct (s_unread s v); reflexivity].
    apply collects_spec in C as (_ & G' & H). rewrite G in G'. injection G' as <-.
    rewrite (H m Hm Hne) in Um. discriminate.
  Qed.

  Lemma spec_data_last v k w :
    s_unread s v = true -> s_grp s v = Some k ->
    (forall m, In m (group_members s k) -> m <> v -> s_unread s m = false) ->
    s_present (fst (sstep s (OData v))) w = s_present s w && negb (in_group s k w).
  Proof.
    intros U G H. rewrite sstep_data, (proj2 (collects_spec s v k) (conj U (conj G H))).
    cbn [fst mark_read without s_present]. destruct (in_group s k w), (s_present s w); reflexivity.
  Qed.

  Lemma spec_next_present w : s_present (fst (sstep s ONext)) w = s_present s w.
  Proof. cbn [sstep]. destruct (find _ _); reflexivity. Qed.

  (** only a read removes anybody, and only the members of the group it collects *)
  Lemma spec_removed o w :
    s_present s w = true -> s_present (fst (sstep s o)) w = false ->
    exists v k, o = OData v /\ collects s v = Some k /\ in_group s k w = true.
  Proof.
    intros P0 P1. destruct o as [v|v1 v2 a|v d|v| |v a|v|]; try (cbn in P1; congruence).
    - cbn [sstep] in P1. destruct (s_present s v); cbn [fst s_present] in P1; [congruence|].
      unfold fupd in P1. destruct (v =? w); congruence.
    - rewrite spec_bind_present in P1. congruence.
    - exists v. rewrite sstep_data in P1.
      destruct (collects s v) as [k|]; [|destruct (s_unread s v); cbn in P1; congruence].
      exists k. cbn [fst mark_read without s_present] in P1. destruct (in_group s k w); [auto|congruence].
    - rewrite spec_next_present in P1. congruence.
  Qed.

  (** C03: edges and data are last-write maps *)

  Lemma spec_data_answer v : snd (sstep s (OData v)) = RData (s_data s v).
  Proof. rewrite sstep_data. reflexivity. Qed.

  (** bind(v1, v2, a) makes a point to v2, leaves every other label of v1 and
      every other vertex alone; a re-bound label keeps its position *)
  Lemma spec_bind_edges v1 v2 a :
    let s' := fst (sstep s (OBind v1 v2 a)) in
    (forall b, mm_get (s_edges s' v1) b = if label_eqb a b then Some v2 else mm_get (s_edges s v1) b)
    /\ map fst (s_edges s' v1) = (if in_dec label_eq_dec a (map fst (s_edges s v1))
                                  then map fst (s_edges s v1) else map fst (s_edges s v1) ++ [a])
    /\ (forall w, w <> v1 -> s_edges s' w = s_edges s w)
    /\ (forall w, s_data s' w = s_data s w).
  Proof.
    destruct (spec_bind_frame v1 v2 a) as (? & ? & ->). cbn [fst s_edges s_data]. rewrite fupd_eq.
    split; [intros b; apply mm_get_spec_insert|]. split; [apply spec_insert_keys|].
    split; [intros w; apply fupd_neq|reflexivity].
  Qed.

  Lemma spec_put_data v d :
    let s' := fst (sstep s (OPut v d)) in
    s_data s' v = Some d /\ (forall w, w <> v -> s_data s' w = s_data s w)
    /\ (forall w, s_edges s' w = s_edges s w).
  Proof.
    cbn [sstep fst s_data s_edges]. rewrite fupd_eq. split; [reflexivity|].
    split; [intros w; apply fupd_neq|reflexivity].
  Qed.

  Lemma spec_frame_readers o :
    match o with OData _ | ONext | OKid _ _ | OKids _ | OKeys => True | _ => False end ->
    forall w, s_edges (fst (sstep s o)) w = s_edges s w /\ s_data (fst (sstep s o)) w = s_data s w.
  Proof.
    destruct o as [v|v1 v2 a|v d|v| |v a|v|]; intros H w; try destruct H; auto.
    - destruct (spec_data_frame v) as (_ & -> & -> & _). auto.
    - cbn [sstep]. destruct (find _ _); auto.
  Qed.

  Lemma spec_frame_add v w :
    w <> v -> s_edges (fst (sstep s (OAdd v))) w = s_edges s w /\ s_data (fst (sstep s (OAdd v))) w = s_data s w.
  Proof.
    intros Hw. cbn [sstep]. destruct (s_present s v); [auto|]. cbn [fst s_edges s_data].
    rewrite !fupd_neq by exact Hw. auto.
  Qed.
End SpecRules.

(** ** invariants of the reference run *)

Definition bounded (s : spec) : Prop := forall v, s_present s v = true -> v < s_bound s.

Definition fresh_ok (s : spec) : Prop :=
  forall v k, s_present s v = true -> s_grp s v = Some k -> k < s_fresh s.

Lemma bounded_init : bounded sinit.
Proof. intros v H. discriminate. Qed.

Lemma bounded_step s o : bounded s -> bounded (fst (sstep s o)).
Proof.
  intros HB. destruct o as [v|v1 v2 a|v d|v| |v a|v|]; try exact HB.
  - cbn [sstep]. destruct (s_present s v) eqn:Pv; [exact HB|]. intros w. cbn [fst s_present s_bound]. unfold fupd.
    destruct (Nat.eqb_spec v w) as [->|Hne]; [lia|]. intros H. apply HB in H. lia.
  - destruct (spec_bind_frame s v1 v2 a) as (? & ? & ->). exact HB.
  - intros w Hw. destruct (spec_data_frame s v) as (-> & _). apply HB, (spec_data_shrinks s v w Hw).
  - cbn [sstep]. destruct (find _ _); exact HB.
Qed.

Lemma bounded_run : forall os s, bounded s -> bounded (fst (srun s os)).
Proof.
  induction os as [|o t IH]; intros s HB; [exact HB|]. rewrite srun_cons. cbn [fst].
  apply IH. apply bounded_step. exact HB.
Qed.

(** ** C01: whoever is removed is linked to the vertex read *)

Fixpoint bind_pairs (os : list op) : list (nat * nat) :=
  match os with
  | [] => []
  | OBind v1 v2 _ :: t => (v1, v2) :: bind_pairs t
  | _ :: t => bind_pairs t
  end.

(** connected in the undirected graph whose edges are the bind calls *)
Inductive linked (E : list (nat * nat)) : nat -> nat -> Prop :=
| l_refl v : linked E v v
| l_edge a b : In (a, b) E -> linked E a b
| l_sym a b : linked E a b -> linked E b a
| l_trans a b c : linked E a b -> linked E b c -> linked E a c.

Definition endpoint (E : list (nat * nat)) (v : nat) : Prop :=
  exists w, In (v, w) E \/ In (w, v) E.

Lemma linked_mono E E' a b : incl E E' -> linked E a b -> linked E' a b.
Proof.
  intros Hi H. induction H.
  - apply l_refl.
  - apply l_edge. apply Hi. assumption.
  - apply l_sym. assumption.
  - eapply l_trans; eassumption.
Qed.

Lemma endpoint_mono E E' v : incl E E' -> endpoint E v -> endpoint E' v.
Proof. intros Hi (w & [H|H]); exists w; [left|right]; apply Hi; exact H. Qed.

(** invariant of the reference run together with the bind calls made so
    far: the members of a group are endpoints linked to each other *)
Record J (E : list (nat * nat)) (s : spec) : Prop := {
  j_fresh : fresh_ok s;
  j_link : forall v w k, s_present s v = true -> s_present s w = true ->
                         s_grp s v = Some k -> s_grp s w = Some k -> linked E v w;
  j_endp : forall v k, s_present s v = true -> s_grp s v = Some k -> endpoint E v
}.

Lemma J_init : J [] sinit.
Proof. split; cbn; intros; discriminate. Qed.

Definition pairs_of (o : op) : list (nat * nat) :=
  match o with OBind v1 v2 _ => [(v1, v2)] | _ => [] end.

Lemma J_mono E E' s : incl E E' -> J E s -> J E' s.
Proof.
  intros Hi [F L D]. split; [exact F| |].
  - intros v w k H1 H2 H3 H4. eapply linked_mono; [exact Hi|]. eapply L; eassumption.
  - intros v k H1 H2. eapply endpoint_mono; [exact Hi|]. eapply D; eassumption.
Qed.

(** [J] survives whatever gives nobody a group name *)
Lemma J_shrink E s s' :
  J E s -> s_fresh s <= s_fresh s' ->
  (forall w k, s_present s' w = true -> s_grp s' w = Some k -> s_present s w = true /\ s_grp s w = Some k) ->
  J E s'.
Proof.
  intros [F L D] Hf H. split.
  - intros w k Hw K. destruct (H w k Hw K) as [Pw Gw]. apply (F w k Pw) in Gw. lia.
  - intros w1 w2 k H1 H2 K1 K2. destruct (H w1 k H1 K1), (H w2 k H2 K2). apply (L w1 w2 k); assumption.
  - intros w k Hw K. destruct (H w k Hw K). apply (D w k); assumption.
Qed.

(** the vertices of [X], endpoints linked to each other and to whoever
    carries the name [k] already, take that name *)
Lemma J_regroup E s (X : nat -> bool) k grp' e fresh' :
  J E s ->
  (forall w, grp' w = if X w then Some k else s_grp s w) ->
  k < fresh' -> s_fresh s <= fresh' ->
  (forall w, X w = true -> endpoint E w) ->
  (forall w w', X w = true -> X w' = true -> linked E w w') ->
  (forall w w', X w = true -> X w' = false -> s_present s w' = true -> s_grp s w' = Some k -> linked E w w') ->
  J E (mkS (s_bound s) (s_present s) grp' (s_unread s) e (s_data s) (s_alloc s) fresh').
Proof.
  intros [F L D] Gr Hk Hf HE HL HO. split; unfold fresh_ok; cbn [s_present s_grp s_fresh].
  - intros w k' Hw. rewrite Gr. destruct (X w); [intros [= <-]; exact Hk|].
    intros K. apply (F w k' Hw) in K. lia.
  - intros w1 w2 k' H1 H2. rewrite !Gr. destruct (X w1) eqn:X1, (X w2) eqn:X2; intros K1 K2.
    + apply HL; assumption.
    + injection K1 as <-. apply HO; assumption.
    + injection K2 as <-. apply l_sym. apply HO; assumption.
    + apply (L w1 w2 k'); assumption.
  - intros w k' Hw. rewrite Gr. destruct (X w) eqn:Xw; [intros _; apply HE; exact Xw|apply D; exact Hw].
Qed.

(** [x], an endpoint linked to [y], joins the group of [y] *)
Lemma J_join E s x y k e :
  J E s -> s_present s y = true -> s_grp s y = Some k -> linked E x y -> endpoint E x ->
  J E (mkS (s_bound s) (s_present s) (fupd (s_grp s) x (Some k)) (s_unread s) e (s_data s)
           (s_alloc s) (s_fresh s)).
Proof.
  intros HJ Py Gy Lxy Ex. apply (J_regroup E s (fun w => x =? w) k _ _ _ HJ).
  - reflexivity.
  - apply (j_fresh _ _ HJ y k Py Gy).
  - apply le_n.
  - intros w Hw. apply Nat.eqb_eq in Hw. subst w. exact Ex.
  - intros w w' Hw Hw'. apply Nat.eqb_eq in Hw, Hw'. subst w w'. apply l_refl.
  - intros w w' Hw _ Pw' Gw'. apply Nat.eqb_eq in Hw. subst w.
    eapply l_trans; [exact Lxy|]. apply (j_link _ _ HJ y w' k); assumption.
Qed.

Lemma J_step n cap E s o :
  J E s -> pre n cap s o -> J (E ++ pairs_of o) (fst (sstep s o)).
Proof.
  intros HJ Hp. apply (J_mono E (E ++ pairs_of o)) in HJ; [|apply incl_appl, incl_refl].
  destruct o as [v|v1 v2 a|v d|v| |v a|v|]; cbn [pairs_of] in *; try exact HJ.
  - apply (J_shrink _ s _ HJ); cbn [sstep]; destruct (s_present s v); cbn [fst s_fresh s_present s_grp]; auto.
    intros w k. unfold fupd. destruct (v =? w); [discriminate|auto].
  - destruct Hp as (P1 & P2 & _).
    assert (Hin : In (v1, v2) (E ++ [(v1, v2)])) by (apply in_or_app; right; left; reflexivity).
    pose proof (l_edge _ _ _ Hin) as L12.
    assert (E1 : endpoint (E ++ [(v1, v2)]) v1) by (exists v2; left; exact Hin).
    assert (E2 : endpoint (E ++ [(v1, v2)]) v2) by (exists v1; right; exact Hin).
    cbn [sstep]. destruct (s_grp s v1) as [k1|] eqn:G1; destruct (s_grp s v2) as [k2|] eqn:G2; cbn [fst].
    + apply (J_shrink _ s _ HJ); auto.
    + apply (J_join _ s v2 v1 k1 _ HJ P1 G1 (l_sym _ _ _ L12) E2).
    + apply (J_join _ s v1 v2 k2 _ HJ P2 G2 L12 E1).
    + (* a new group, under a name nobody carries *)
      apply (J_regroup _ s (fun w => (v2 =? w) || (v1 =? w)) (s_fresh s) _ _ _ HJ); try lia.
      * intros w. unfold fupd. destruct (v2 =? w), (v1 =? w); reflexivity.
      * intros w Hw. apply orb_true_iff in Hw as [Hw|Hw]; apply Nat.eqb_eq in Hw; subst w; assumption.
      * intros w w' Hw Hw'.
        apply orb_true_iff in Hw as [Hw|Hw]; apply Nat.eqb_eq in Hw; subst w;
          apply orb_true_iff in Hw' as [Hw'|Hw']; apply Nat.eqb_eq in Hw'; subst w';
          auto using l_refl, l_sym.
      * intros w w' _ _ Pw' Gw'. apply (j_fresh _ _ HJ w' _ Pw') in Gw'. lia.
  - apply (J_shrink _ s _ HJ); auto.
  - apply (J_shrink _ s _ HJ).
    + destruct (spec_data_frame s v) as (_ & _ & _ & _ & ->). apply le_n.
    + intros w k Hw. destruct (spec_data_shrinks s v w Hw) as [Pw ->]. auto.
  - apply (J_shrink _ s _ HJ); cbn [sstep]; destruct (find _ _); auto.
Qed.

Lemma J_run n cap : forall os E s,
  J E s -> within_limits n cap s os -> J (E ++ bind_pairs os) (fst (srun s os)).
Proof.
  induction os as [|o t IH]; intros E s HJ HW.
  - rewrite app_nil_r. exact HJ.
  - destruct HW as [Hp HW]. rewrite srun_cons. cbn [fst].
    replace (E ++ bind_pairs (o :: t)) with ((E ++ pairs_of o) ++ bind_pairs t)
      by (rewrite <- app_assoc; destruct o; reflexivity).
    apply IH; [apply (J_step n cap); assumption|exact HW].
Qed.

(** the safety statement on the reference model, from any state that the
    bind calls [E] made so far account for *)
Theorem spec_safety_from n cap E s0 os o :
  J E s0 -> bounded s0 -> within_limits n cap s0 (os ++ [o]) ->
  let s := fst (srun s0 os) in
  let s' := fst (sstep s o) in
  forall w, s_present s w = true -> s_present s' w = false ->
  exists v, o = OData v /\ s_unread s v = true
            /\ linked (E ++ bind_pairs os) v w /\ endpoint (E ++ bind_pairs os) w
            /\ s_unread s' w = false.
Proof.
  intros HJ0 HB HW s s' w P0 P1. apply within_limits_app in HW as [HW [Hp _]]. fold s in Hp.
  pose proof (J_run n cap os E s0 HJ0 HW) as HJ. fold s in HJ.
  destruct (spec_removed s o w P0 P1) as (v & k & -> & C & Ig).
  apply collects_spec in C as (Uv & Gv & Hlast). apply in_group_spec in Ig as [_ Gw].
  exists v. split; [reflexivity|]. split; [exact Uv|].
  split; [apply (j_link _ _ HJ v w k); assumption|].
  split; [apply (j_endp _ _ HJ w k); assumption|].
  unfold s'. rewrite spec_data_unread. destruct (Nat.eqb_spec v w) as [|Hne]; [reflexivity|].
  apply Hlast; [|congruence]. apply group_members_spec.
  split; [apply (bounded_run os s0 HB); exact P0|]. split; assumption.
Qed.

Theorem spec_safety n cap os o :
  within_limits n cap sinit (os ++ [o]) ->
  let s := fst (srun sinit os) in
  let s' := fst (sstep s o) in
  forall w, s_present s w = true -> s_present s' w = false ->
  exists v, o = OData v /\ s_unread s v = true
            /\ linked (bind_pairs os) v w /\ endpoint (bind_pairs os) w
            /\ s_unread s' w = false.
Proof. exact (spec_safety_from n cap [] sinit os o J_init bounded_init). Qed.

(** ** C05: the allocator *)

Lemma spec_alloc_mono s o : s_alloc s <= s_alloc (fst (sstep s o)).
Proof.
  destruct o as [v|v1 v2 a|v d|v| |v a|v|]; try apply le_n.
  - cbn [sstep]. destruct (s_present s v); apply le_n.
  - destruct (spec_bind_frame s v1 v2 a) as (? & ? & ->). apply le_n.
  - destruct (spec_data_frame s v) as (_ & _ & _ & -> & _). apply le_n.
  - cbn [sstep]. destruct (find _ _) as [id|] eqn:F; [|apply le_n]. cbn [fst s_alloc].
    apply find_some in F as [Hin _]. apply in_seq in Hin. lia.
Qed.

Definition ids_of (rs : list res) : list nat :=
  flat_map (fun r => match r with RId v => [v] | _ => [] end) rs.

Lemma sstep_not_id s o : o <> ONext -> ids_of [snd (sstep s o)] = [].
Proof.
  intros Hn. destruct o as [v|v1 v2 a|v d|v| |v a|v|]; try reflexivity.
  - cbn [sstep]. destruct (s_present s v); reflexivity.
  - destruct (spec_bind_frame s v1 v2 a) as (? & ? & ->). reflexivity.
  - rewrite sstep_data. reflexivity.
  - congruence.
Qed.

Lemma ids_of_cons r rs : ids_of (r :: rs) = ids_of [r] ++ ids_of rs.
Proof. unfold ids_of. cbn [flat_map]. rewrite app_nil_r. reflexivity. Qed.

(** the ids handed out along a run lie between the allocator positions at its
    two ends and increase strictly, so none is handed out twice *)
Lemma spec_ids_increasing n cap : forall os s,
  bounded s -> within_limits n cap s os ->
  Forall (fun id => s_alloc s <= id /\ id < cap /\ id < s_alloc (fst (srun s os))) (ids_of (snd (srun s os)))
  /\ StronglySorted lt (ids_of (snd (srun s os)))
  /\ s_alloc s <= s_alloc (fst (srun s os)).
Proof.
  induction os as [|o t IH]; intros s HB HW.
  - cbn. split; [constructor|]. split; [constructor|lia].
  - destruct HW as [Hp HW]. rewrite srun_cons. cbn [fst snd].
    destruct (IH _ (bounded_step s o HB) HW) as (F1 & S1 & M1).
    pose proof (spec_alloc_mono s o) as M0.
    assert (F0 : Forall (fun id => s_alloc s <= id /\ id < cap /\ id < s_alloc (fst (srun (fst (sstep s o)) t)))
                        (ids_of (snd (srun (fst (sstep s o)) t)))).
    { eapply Forall_impl; [|exact F1]. cbn beta. intros x (X1 & X2 & X3). lia. }
    rewrite ids_of_cons.
    destruct (match o with ONext => true | _ => false end) eqn:Isn. (* next_id() or another call *)
    + destruct o; try discriminate.
      destruct (spec_next_fresh n cap s HB Hp) as (id & E & A1 & A2 & A3 & _).
      rewrite E in *. cbn [fst snd s_alloc] in *. change (ids_of [RId id]) with [id]. cbn [app].
      split; [constructor; [lia|exact F0]|]. split; [|lia].
      constructor; [exact S1|]. eapply Forall_impl; [|exact F1]. cbn beta. intros x (X1 & _). lia.
    + rewrite sstep_not_id by (intros ->; discriminate). split; [exact F0|]. split; [exact S1|lia].
Qed.

(** ** C06: create / fill / read / collect cycles *)

Definition cycle (u w : nat) (a : label) (d : hex) : list op :=
  [OAdd u; OAdd w; OBind u w a; OPut w d; OData w].

Lemma alive_groups_same s1 s2 :
  bounded s1 -> bounded s2 -> (forall k x, in_group s1 k x = in_group s2 k x) ->
  length (alive_groups s1) = length (alive_groups s2).
Proof.
  intros B1 B2 H. apply Permutation_length, NoDup_Permutation; try apply NoDup_nodup.
  intros k. rewrite !alive_in.
  split; intros (x & _ & Hx); apply in_group_spec in Hx; exists x.
  - rewrite H in Hx. apply in_group_spec in Hx. split; [apply B2, Hx|exact Hx].
  - rewrite <- H in Hx. apply in_group_spec in Hx. split; [apply B1, Hx|exact Hx].
Qed.

Lemma cycle_spec n cap s u w a d :
  bounded s -> fresh_ok s -> u <> w -> u < cap -> w < cap -> 1 <= n ->
  s_present s u = false -> s_present s w = false -> length (alive_groups s) < 14 ->
  within_limits n cap s (cycle u w a d)
  /\ (let s' := fst (srun s (cycle u w a d)) in
      bounded s' /\ fresh_ok s'
      /\ (forall x, s_present s' x = s_present s x)
      /\ (forall x, s_present s x = true -> s_grp s' x = s_grp s x)
      /\ length (alive_groups s') = length (alive_groups s))
  /\ snd (srun s (cycle u w a d)) = [RUnit; RUnit; RUnit; RUnit; RData (Some d)].
Proof.
  intros HB HF Hne Hu Hw Hn Pu Pw Hal.
  assert (Nuw : (u =? w) = false) by (apply Nat.eqb_neq; exact Hne).
  assert (Nwu : (w =? u) = false) by (apply Nat.eqb_neq; congruence).
  (* the states after the two adds, before the read and after it *)
  set (s2 := mkS (Nat.max (Nat.max (s_bound s) (S u)) (S w)) (fupd (fupd (s_present s) u true) w true)
                 (fupd (fupd (s_grp s) u None) w None) (fupd (fupd (s_unread s) u false) w false)
                 (fupd (fupd (s_edges s) u []) w []) (fupd (fupd (s_data s) u None) w None)
                 (s_alloc s) (s_fresh s)).
  set (s4 := mkS (s_bound s2) (s_present s2) (fupd (fupd (s_grp s2) u (Some (s_fresh s))) w (Some (s_fresh s)))
                 (fupd (s_unread s2) w true) (fupd (s_edges s2) u (spec_insert (s_edges s2 u) a w))
                 (fupd (s_data s2) w (Some d)) (s_alloc s) (S (s_fresh s))).
  set (s5 := mark_read (without s4 (s_fresh s)) w).
  assert (S12 : srun s [OAdd u; OAdd w] = (s2, [RUnit; RUnit])).
  { cbn [srun sstep]. rewrite Pu. cbn [s_present]. unfold fupd at 1. rewrite Nuw, Pw. reflexivity. }
  assert (Q2 : s_present s2 u = true /\ s_present s2 w = true /\ s_grp s2 u = None /\ s_grp s2 w = None).
  { cbn [s2 s_present s_grp]. unfold fupd. rewrite Nwu, !Nat.eqb_refl. auto. }
  destruct Q2 as (Qu & Qw & Gu & Gw).
  assert (S34 : srun s2 [OBind u w a; OPut w d] = (s4, [RUnit; RUnit])).
  { rewrite !srun_cons. cbn [sstep]. rewrite Gu, Gw. reflexivity. }
  (* the new group has the two newcomers and nobody else: its name is fresh *)
  assert (IG : forall x, in_group s4 (s_fresh s) x = (w =? x) || (u =? x)).
  { intros x. unfold in_group. cbn [s4 s2 s_present s_grp]. unfold fupd.
    destruct (w =? x); [rewrite Nat.eqb_refl; reflexivity|].
    destruct (u =? x); [rewrite Nat.eqb_refl; reflexivity|]. cbn [orb].
    destruct (s_present s x) eqn:Px; [|reflexivity]. cbn [andb].
    destruct (s_grp s x) as [k|] eqn:Gx; [|reflexivity].
    pose proof (HF x k Px Gx). destruct (Nat.eqb_spec k (s_fresh s)); [lia|reflexivity]. }
  assert (C : collects s4 w = Some (s_fresh s)).
  { apply collects_spec. cbn [s4 s2 s_unread s_grp]. unfold fupd. rewrite !Nat.eqb_refl.
    split; [reflexivity|]. split; [reflexivity|]. intros m Hm Hmw.
    apply group_members_spec in Hm as (_ & Hm). apply in_group_spec in Hm. rewrite IG in Hm.
    apply orb_true_iff in Hm as [Hm|Hm]; apply Nat.eqb_eq in Hm; subst m; [contradiction|].
    rewrite Nwu, Nat.eqb_refl. reflexivity. }
  assert (SR : srun s (cycle u w a d) = (s5, [RUnit; RUnit; RUnit; RUnit; RData (Some d)])).
  { change (cycle u w a d) with ([OAdd u; OAdd w] ++ [OBind u w a; OPut w d] ++ [OData w]).
    rewrite !srun_app, S12. cbn [fst snd]. rewrite S34. cbn [fst snd srun]. rewrite sstep_data, C.
    cbn [s4 s_data]. rewrite fupd_eq. reflexivity. }
  (* the collection takes the newcomers away again *)
  assert (K : forall x, s_present s5 x = s_present s x /\ (s_present s x = true -> s_grp s5 x = s_grp s x)).
  { intros x. cbn [s5 mark_read without s_present s_grp]. rewrite IG. cbn [s4 s2 s_present s_grp]. unfold fupd.
    destruct (Nat.eqb_spec w x) as [<-|]; [rewrite Pw; split; [reflexivity|discriminate]|].
    destruct (Nat.eqb_spec u x) as [<-|]; [rewrite Pu; split; [reflexivity|discriminate]|].
    split; reflexivity. }
  pose proof (bounded_run [OAdd u; OAdd w] s HB) as B2. rewrite S12 in B2. cbn [fst] in B2.
  pose proof (bounded_run (cycle u w a d) s HB) as B5.
  rewrite SR in B5 |- *. cbn [fst snd] in B5 |- *. split; [|split; [|reflexivity]].
  - change (cycle u w a d) with ([OAdd u; OAdd w] ++ [OBind u w a; OPut w d] ++ [OData w]).
    rewrite !within_limits_app, S12. cbn [fst]. rewrite S34. cbn [fst within_limits pre].
    rewrite spec_bind_present, Gu, Gw. repeat split; auto.
    + right. cbn [s2 s_edges]. unfold fupd. rewrite Nwu, Nat.eqb_refl. exact Hn.
    + (* the two adds leave the groups as they were *)
      rewrite (alive_groups_same s2 s B2 HB); [exact Hal|]. intros k x.
      unfold in_group. cbn [s2 s_present s_grp]. unfold fupd.
      destruct (Nat.eqb_spec w x) as [<-|]; [rewrite Pw; reflexivity|].
      destruct (Nat.eqb_spec u x) as [<-|]; [rewrite Pu; reflexivity|reflexivity].
  - split; [exact B5|]. split; [|split; [apply K|split; [apply K|]]].
    + intros x k Px Gx. rewrite (proj1 (K x)) in Px. rewrite (proj2 (K x) Px) in Gx.
      pose proof (HF x k Px Gx). cbn. lia.
    + apply (alive_groups_same s5 s B5 HB). intros k x. unfold in_group. rewrite (proj1 (K x)).
      destruct (s_present s x) eqn:Px; [rewrite (proj2 (K x) Px)|]; reflexivity.
Qed.

(** any number of cycles, each over its own pair of currently absent ids *)
Fixpoint cycles (cs : list (nat * nat * label * hex)) : list op :=
  match cs with
  | [] => []
  | (u, w, a, d) :: t => cycle u w a d ++ cycles t
  end.

Theorem cycles_spec n cap : forall cs s,
  bounded s -> fresh_ok s -> 1 <= n -> length (alive_groups s) < 14 ->
  Forall (fun c => match c with (u, w, _, _) =>
            u <> w /\ u < cap /\ w < cap /\ s_present s u = false /\ s_present s w = false end) cs ->
  within_limits n cap s (cycles cs)
  /\ (forall x, s_present (fst (srun s (cycles cs))) x = s_present s x)
  /\ length (alive_groups (fst (srun s (cycles cs)))) = length (alive_groups s).
Proof.
  induction cs as [|[[[u w] a] d] t IH]; intros s HB HF Hn Hal HC.
  - cbn. auto.
  - inversion HC as [|? ? Hhd HC']; subst. cbn beta iota in Hhd. destruct Hhd as (H1 & H2 & H3 & H4 & H5). cbn [cycles].
    destruct (cycle_spec n cap s u w a d HB HF H1 H2 H3 Hn H4 H5 Hal) as (W1 & (B1 & F1 & P1 & G1 & L1) & _).
    set (s1 := fst (srun s (cycle u w a d))) in *.
    assert (HC1 : Forall (fun c => match c with (u0, w0, _, _) =>
               u0 <> w0 /\ u0 < cap /\ w0 < cap /\ s_present s1 u0 = false /\ s_present s1 w0 = false end) t).
    { eapply Forall_impl; [|exact HC']. intros [[[u0 w0] a0] d0]. rewrite !P1. tauto. }
    assert (Hal1 : length (alive_groups s1) < 14) by lia.
    destruct (IH s1 B1 F1 Hn Hal1 HC1) as (W2 & P2 & L2).
    split; [apply within_limits_app; split; assumption|].
    rewrite srun_app. cbn [fst]. fold s1. split.
    + intros x. rewrite P2. apply P1.
    + lia.
Qed.

