(** * PrintFacts: the printers of Print.v (property C20, P_C20.v).  [inspect]
    is a depth-first search; its invariant [dfs_inv] follows the walk from
    the root as a whole, so that the listing of a closed graph is read off the
    invariant at the end ([inspect_doc_spec]).  A vertex lists its edges in the
    order of [sort_edges]; all that is used of it is [sort_edges_perm]
    (ExportFacts.v). *)

From Sodg Require Export Reach.
From Sodg Require Import ExportFacts.

(** the edge a line of the listing shows *)
Definition triple (l : iline) : nat * label * nat := (il_from l, il_label l, il_to l).

(** an edge of vertex [u], as a line shows it *)
Definition edge_from (u : nat) (e : label * nat) : nat * label * nat := (u, fst e, snd e).

Lemma out_edges_eq g u : out_edges g u = map (edge_from u) (edg g u).
Proof. reflexivity. Qed.

(** the targets of the lines printed without the ellipsis, i.e. of the edges
    that [inspect] descends into *)
Definition fresh_targets (ls : list iline) : list nat :=
  map il_to (filter (fun l => negb (il_skip l)) ls).

Lemma fresh_targets_app l1 l2 : fresh_targets (l1 ++ l2) = fresh_targets l1 ++ fresh_targets l2.
Proof. unfold fresh_targets. rewrite filter_app, map_app. reflexivity. Qed.

(** the inner loop of [inspect_v], as a function of its own *)
Section Igo.
  Variable rec : nat -> nat -> list nat -> outcome (list iline * list nat).
  Variables depth v : nat.

  Fixpoint igo (es : edges) (seen : list nat) (acc : list iline) {struct es}
    : outcome (list iline * list nat) :=
    match es with
    | [] => Ok (acc, seen)
    | (a, to) :: rest =>
        if mem to seen
        then igo rest seen (acc ++ [mkIL depth v a to true])
        else
          r <- rec (S depth) to (to :: seen) ;;
          igo rest (snd r) (acc ++ [mkIL depth v a to false] ++ fst r)
    end.
End Igo.

Lemma inspect_v_S f g d v seen :
  inspect_v (S f) g d v seen =
  (_ <- chk_v g v ;; igo (inspect_v f g) d v (sort_edges (edg g v)) (v :: seen) []).
Proof. reflexivity. Qed.

Section Dfs.
  Variables (g : sodg) (r : nat).

  (** the vertices expanded so far, in the order of expansion *)
  Definition expanded (L : list iline) : list nat := r :: fresh_targets L.

  (** The walk from the root [r] is followed as a whole: [L] is the listing
      produced so far, [pend] the edges still to be listed, namely those that
      the loops of the calls in progress have not come to yet.  Every edge of
      an expanded vertex is listed or pending, and nothing else is. *)
  Definition dfs_inv (L : list iline) (pend : list (nat * label * nat)) : Prop :=
    NoDup (expanded L)
    /\ (forall x, In x (expanded L) -> reach ptrue g r x)
    /\ (forall l, In l L -> In (il_to l) (expanded L))
    /\ Permutation (map triple L ++ pend) (flat_map (out_edges g) (expanded L)).

  Lemma expanded_app L L' : expanded (L ++ L') = expanded L ++ fresh_targets L'.
  Proof. unfold expanded. rewrite fresh_targets_app. reflexivity. Qed.

  Lemma expanded_snoc L l :
    expanded (L ++ [l]) = expanded L ++ (if il_skip l then [] else [il_to l]).
  Proof. rewrite expanded_app. unfold fresh_targets. simpl. destruct (il_skip l); reflexivity. Qed.

  Lemma dfs_init : dfs_inv [] (map (edge_from r) (sort_edges (edg g r))).
  Proof.
    unfold dfs_inv. change (expanded []) with [r]. split; [|split; [|split]].
    - constructor; [intros []|constructor].
    - intros x [<-|[]]. apply reach_refl.
    - intros l [].
    - cbn [map flat_map app]. rewrite app_nil_r, out_edges_eq.
      apply Permutation_map, sort_edges_perm.
  Qed.

  Lemma dfs_pending L pend u a w :
    dfs_inv L pend -> In (u, a, w) pend -> In u (expanded L) /\ In (a, w) (edg g u).
  Proof.
    intros (_ & _ & _ & P) H.
    assert (H' : In (u, a, w) (flat_map (out_edges g) (expanded L)))
      by (apply (Permutation_in _ P), in_or_app; right; exact H).
    apply in_flat_map in H' as (x & Hx & H'). rewrite out_edges_eq in H'.
    apply in_map_iff in H' as ([b y] & E & H').
    injection E as -> -> ->. split; assumption.
  Qed.

  (** an edge to a vertex expanded before is listed with the ellipsis *)
  Lemma dfs_skip L pend d v a w :
    dfs_inv L ((v, a, w) :: pend) -> In w (expanded L) ->
    dfs_inv (L ++ [mkIL d v a w true]) pend.
  Proof.
    intros (ND & R & T & P) Hw. unfold dfs_inv.
    rewrite expanded_snoc, map_app, <- app_assoc. cbn [il_skip]. rewrite app_nil_r.
    repeat split; auto.
    intros l Hl. apply in_app_iff in Hl as [Hl|[<-|[]]]; auto.
  Qed.

  (** an edge to a new vertex [w] is listed without it; [w] is expanded, and
      its edges, in the order [es] in which its loop takes them, are pending *)
  Lemma dfs_enter L pend d v a w es :
    dfs_inv L ((v, a, w) :: pend) -> ~ In w (expanded L) -> Permutation es (edg g w) ->
    dfs_inv (L ++ [mkIL d v a w false]) (map (edge_from w) es ++ pend).
  Proof.
    intros I Hw Pe. destruct (dfs_pending _ _ _ _ _ I (or_introl eq_refl)) as [Hv Hvw].
    destruct I as (ND & R & T & P). unfold dfs_inv. rewrite expanded_snoc. cbn [il_skip il_to].
    split; [|split; [|split]].
    - apply (Permutation_NoDup (Permutation_cons_append _ w)). constructor; assumption.
    - intros x Hx. apply in_app_iff in Hx as [Hx|[<-|[]]]; auto.
      eapply reach_step; [apply R; exact Hv | exact Hvw | reflexivity].
    - intros l Hl. rewrite in_app_iff. apply in_app_iff in Hl as [Hl|[<-|[]]]; auto.
      right; left; reflexivity.
    - rewrite map_app, flat_map_app, <- app_assoc. cbn [map flat_map app]. rewrite app_nil_r, out_edges_eq.
      eapply perm_trans; [|apply Permutation_app; [exact P | exact (Permutation_map (edge_from w) Pe)]].
      rewrite <- app_assoc. apply Permutation_app_head, perm_skip, Permutation_app_comm.
  Qed.

  (** when nothing is pending, the expanded vertices are the reachable ones
      and the listing shows their edges *)
  Lemma dfs_done L :
    dfs_inv L [] ->
    NoDup (expanded L)
    /\ (forall u, In u (expanded L) <-> reach ptrue g r u)
    /\ Permutation (map triple L) (flat_map (out_edges g) (expanded L)).
  Proof.
    intros (N & R & T & P). rewrite app_nil_r in P. split; [exact N|]. split; [|exact P].
    intros u. split; [apply R|].
    apply (reach_in_closed_set ptrue g r (fun u => In u (expanded L))); [left; reflexivity|].
    intros x a w Hx Hi _.
    assert (H : In (x, a, w) (map triple L)).
    { apply (Permutation_in _ (Permutation_sym P)), in_flat_map. exists x. split; [exact Hx|].
      rewrite out_edges_eq. apply (in_map (edge_from x) _ (a, w)), Hi. }
    apply in_map_iff in H as (l & E & Hl). injection E as _ _ <-. apply T, Hl.
  Qed.

  (** how a part of the walk that starts with the listing [L] ends: it has
      added lines [ls], returned behind [acc], and leaves [pend] pending, the
      set of seen vertices being that of the expanded ones; or it has met an
      edge that leads out of the graph *)
  Definition walked (L : list iline) (pend : list (nat * label * nat)) (acc : list iline)
    (o : outcome (list iline * list nat)) : Prop :=
    (exists ls s',
       o = Ok (acc ++ ls, s')
       /\ dfs_inv (L ++ ls) pend
       /\ (forall x, In x s' <-> In x (expanded (L ++ ls))))
    \/ (o = Panic PBoundary /\ ~ closed g r).

  Lemma walked_app L pend acc ls0 o :
    walked (L ++ ls0) pend (acc ++ ls0) o -> walked L pend acc o.
  Proof.
    intros [(ls & s' & E & H)|H]; [left | right; exact H].
    exists (ls0 ++ ls), s'. rewrite !app_assoc. auto.
  Qed.

  (** the statement about a call of [inspect_v] with fuel [fuel].  The call
      on an id beyond the capacity panics at once and needs one unit; that is
      why [inspect_doc] hands in [cap_of g + 1]. *)
  Definition visit_ok (fuel : nat) : Prop :=
    forall d v seen L pend,
      dfs_inv L (map (edge_from v) (sort_edges (edg g v)) ++ pend) ->
      (forall x, In x (v :: seen) <-> In x (expanded L)) ->
      (v < cap_of g -> unseen (cap_of g) (v :: seen) + 2 <= fuel) -> 1 <= fuel ->
      walked L pend [] (inspect_v fuel g d v seen).

  Lemma igo_spec f d v :
    visit_ok f ->
    forall es s acc L pend,
      dfs_inv L (map (edge_from v) es ++ pend) ->
      (forall x, In x s <-> In x (expanded L)) ->
      unseen (cap_of g) s + 1 <= f ->
      walked L pend acc (igo (inspect_v f g) d v es s acc).
  Proof.
    intros HP es. induction es as [|[a to] rest IH]; intros s acc L pend I Hs Hm.
    - left. exists [], s. rewrite !app_nil_r. auto.
    - cbn [igo map app] in *. destruct (mem to s) eqn:M.
      + (* the target has been seen: one line with the ellipsis *)
        apply mem_In, Hs in M. set (l := mkIL d v a to true).
        apply (walked_app L pend acc [l]), IH; [apply dfs_skip; assumption | | exact Hm].
        intros x. rewrite expanded_snoc, app_nil_r. apply Hs.
      + (* a new vertex: one line, then its listing, then the other edges *)
        apply mem_false in M. set (l := mkIL d v a to false).
        destruct (HP (S d) to (to :: s) (L ++ [l]) (map (edge_from v) rest ++ pend))
          as [(lsr & s1 & E1 & I1 & Hs1)|[E1 N]]; [| | |lia| |].
        { apply dfs_enter; [exact I | rewrite <- Hs; exact M | apply sort_edges_perm]. }
        { intros x. rewrite expanded_snoc, in_app_iff, <- Hs. simpl. tauto. }
        { intros Hto. assert (unseen (cap_of g) (to :: to :: s) < unseen (cap_of g) s); [|lia].
          apply unseen_lt with (y := to); simpl; auto. intros x Hx; simpl; auto. }
        * rewrite E1. cbn [obind fst snd app]. rewrite <- app_assoc in I1, Hs1.
          apply (walked_app L pend acc (l :: lsr)), IH; auto.
          assert (unseen (cap_of g) s1 <= unseen (cap_of g) s); [|lia].
          apply unseen_le. intros x Hx. apply Hs1. rewrite expanded_app, in_app_iff.
          left. apply Hs, Hx.
        * right. rewrite E1. auto.
  Qed.

  Lemma visit_ok_all : forall fuel, visit_ok fuel.
  Proof.
    induction fuel as [|f IHf]; intros d v seen L pend I Hs Hm H1; [lia|].
    rewrite inspect_v_S. destruct (Nat.ltb_spec v (cap_of g)) as [Hv|Hv].
    - rewrite chk_v_ok by exact Hv. apply (igo_spec f d v IHf); auto.
      specialize (Hm Hv). lia.
    - right. rewrite chk_v_panic by exact Hv. split; [reflexivity|]. intros Hc.
      assert (v < cap_of g); [|lia].
      apply (closed_reach_lt g r v Hc), I, Hs. left; reflexivity.
  Qed.

  Lemma inspect_walked : walked [] [] [] (inspect_v (cap_of g + 1) g 0 r []).
  Proof.
    apply visit_ok_all; [rewrite app_nil_r; apply dfs_init | intros x; reflexivity | | lia].
    intros Hr. pose proof (unseen_cons (cap_of g) [] r Hr (fun H => H)) as L. rewrite unseen_nil in L. lia.
  Qed.
End Dfs.

Lemma inspect_doc_spec g v :
  closed g v ->
  exists ls rs,
    inspect_doc g v = Ok ls
    /\ NoDup rs
    /\ (forall u, In u rs <-> reach ptrue g v u)
    /\ Permutation (map triple ls) (flat_map (out_edges g) rs)
    /\ Permutation (v :: fresh_targets ls) rs.
Proof.
  intros Hc. destruct (inspect_walked g v) as [(ls & s' & E & I & _)|[_ N]]; [|contradiction].
  exists ls, (expanded v ls). unfold inspect_doc. rewrite E. cbn [obind fst app] in *.
  destruct (dfs_done g v ls I) as (N & R & P).
  exact (conj eq_refl (conj N (conj R (conj P (Permutation_refl _))))).
Qed.

Lemma inspect_total g v :
  (exists ls, inspect_doc g v = Ok ls) \/ inspect_doc g v = Panic PBoundary.
Proof.
  unfold inspect_doc. destruct (inspect_walked g v) as [(ls & s' & E & _)|[E _]]; rewrite E.
  - left. exists ls. reflexivity.
  - right. reflexivity.
Qed.

(** an enumeration without repetition of the reachable vertices is unique up
    to order, so the listing agrees with every one of them *)
Lemma inspect_doc_listing g v ls rs :
  closed g v -> inspect_doc g v = Ok ls ->
  NoDup rs -> (forall u, In u rs <-> reach ptrue g v u) ->
  Permutation (map triple ls) (flat_map (out_edges g) rs)
  /\ Permutation (v :: fresh_targets ls) rs.
Proof.
  intros Hc E N Hr. destruct (inspect_doc_spec g v Hc) as (ls' & rs' & E' & N' & Hr' & P & Q).
  rewrite E in E'. injection E' as <-.
  assert (R : Permutation rs' rs)
    by (apply NoDup_Permutation; auto; intros x; rewrite Hr, Hr'; reflexivity).
  rewrite <- R. split; assumption.
Qed.

Lemma debug_doc_vertices g :
  map dv_id (dd_vertices (debug_doc g)) = op_keys g
  /\ forall d, In d (dd_vertices (debug_doc g)) ->
       dv_edges d = edg g (dv_id d)
       /\ dv_data d = if has_data g (dv_id d) then Some (dat g (dv_id d)) else None.
Proof.
  unfold debug_doc. cbn [dd_vertices]. split.
  - rewrite map_map. apply map_id.
  - intros d Hd. apply in_map_iff in Hd as (x & <- & _). split; reflexivity.
Qed.

Lemma vprint_doc_ok g v : v < cap_of g -> vprint_doc g v = Ok (has_data g v, map fst (edg g v)).
Proof. intros H. unfold vprint_doc. rewrite chk_v_ok by exact H. reflexivity. Qed.
