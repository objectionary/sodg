(** * C05  next_id() is fresh and never repeats

    "Every id returned by next_id() is below the capacity, is not present at
    that moment, and was not returned by any earlier next_id() on the same
    graph or on the graph it was cloned from, for every interleaving with add,
    bind, put, data-triggered collection and merge.  Vertices created
    internally by merge() and by script variables therefore never coincide with
    a present vertex."

    [C05_fresh]: one call from any pair of related states ([sim_run]: the
    states reached within the limits are such).
    [C05_never_repeats]: along every call sequence within the limits the ids
    handed out are strictly increasing (so none repeats), below the capacity
    and below the allocator position reached.  A clone is the same state
    ([C05_clone_same_future]), so the ids it hands out afterwards continue the
    increasing sequence of the history it was cloned from: apply
    [C05_never_repeats] to the clone's whole history.  merge() and script
    variables obtain their ids by the same model function [op_next_id] inside a
    sequence of primitive calls (C11_as_calls, C14_deploy), followed by add():
    [C05_fresh] says the id is absent at that moment. *)

From Sodg Require Import HistoryThms.
From Coq Require Import Sorted.

Theorem C05_fresh :
  forall n g s,
  Inv n g -> R g s -> bounded s -> pre n (cap_of g) s ONext ->
  exists g' id, step n g ONext = Ok (g', RId id)
    /\ id < cap_of g /\ present g id = false /\ g_next g <= id /\ g_next g' = S id
    /\ (forall w, g_next g <= w -> w < id -> present g w = true).
Proof. intros n g s HI HR _. exact (next_id_fresh n g s HI HR). Qed.

Check C05_fresh :
  forall n g s,
  Inv n g -> R g s -> bounded s -> pre n (cap_of g) s ONext ->
  exists g' id, step n g ONext = Ok (g', RId id)
    /\ id < cap_of g /\ present g id = false /\ g_next g <= id /\ g_next g' = S id
    /\ (forall w, g_next g <= w -> w < id -> present g w = true).
Print Assumptions C05_fresh.

Theorem C05_never_repeats :
  forall n cap os,
  within_limits n cap sinit os ->
  exists g' rs, run n (op_empty cap) os = Ok (g', rs)
    /\ StronglySorted lt (ids_of rs)
    /\ Forall (fun id => id < cap /\ id < g_next g') (ids_of rs).
Proof. exact next_ids_never_repeat. Qed.

Check C05_never_repeats :
  forall n cap os,
  within_limits n cap sinit os ->
  exists g' rs, run n (op_empty cap) os = Ok (g', rs)
    /\ StronglySorted lt (ids_of rs)
    /\ Forall (fun id => id < cap /\ id < g_next g') (ids_of rs).
Print Assumptions C05_never_repeats.

Theorem C05_reference_ids_increasing :
  forall n cap os s,
  bounded s -> within_limits n cap s os ->
  Forall (fun id => s_alloc s <= id /\ id < cap /\ id < s_alloc (fst (srun s os))) (ids_of (snd (srun s os)))
  /\ StronglySorted lt (ids_of (snd (srun s os)))
  /\ s_alloc s <= s_alloc (fst (srun s os)).
Proof. exact spec_ids_increasing. Qed.

Check C05_reference_ids_increasing :
  forall n cap os s,
  bounded s -> within_limits n cap s os ->
  Forall (fun id => s_alloc s <= id /\ id < cap /\ id < s_alloc (fst (srun s os))) (ids_of (snd (srun s os)))
  /\ StronglySorted lt (ids_of (snd (srun s os)))
  /\ s_alloc s <= s_alloc (fst (srun s os)).
Print Assumptions C05_reference_ids_increasing.

Theorem C05_allocator_monotone :
  forall s o, s_alloc s <= s_alloc (fst (sstep s o)).
Proof. exact spec_alloc_mono. Qed.

Check C05_allocator_monotone :
  forall s o, s_alloc s <= s_alloc (fst (sstep s o)).
Print Assumptions C05_allocator_monotone.

Theorem C05_clone_same_future :
  forall n g os, run n (op_clone g) os = run n g os.
Proof. reflexivity. Qed.

Check C05_clone_same_future :
  forall n g os, run n (op_clone g) os = run n g os.
Print Assumptions C05_clone_same_future.

Theorem C05_def_bounded :
  forall os s, bounded s -> bounded (fst (srun s os)).
Proof. exact bounded_run. Qed.

Check C05_def_bounded :
  forall os s, bounded s -> bounded (fst (srun s os)).
Print Assumptions C05_def_bounded.

Theorem C05_ids_of_results :
  forall r rs, ids_of (r :: rs) = ids_of [r] ++ ids_of rs.
Proof. exact ids_of_cons. Qed.

Check C05_ids_of_results :
  forall r rs, ids_of (r :: rs) = ids_of [r] ++ ids_of rs.
Print Assumptions C05_ids_of_results.


(** non-vacuity: add ahead of and behind the allocator, a collection that
    frees lower ids, ids handed out: 0, 2, 4 *)
Definition ex_os : list op :=
  [ONext; OAdd 0; OAdd 1; ONext; OBind 0 1 (Alpha 0); OPut 1 (HVector [5%N]); OData 1; OAdd 3; ONext; OKeys].

Example C05_example : within_limits 1 6 sinit ex_os
  /\ ids_of (snd (srun sinit ex_os)) = [0; 2; 4].
Proof.
  split; [|vm_compute; reflexivity].
  apply limitsb_ok. vm_compute. reflexivity.
Qed.


