(** * MergeFacts: what holds of every run of [merge_rec] / [op_merge], whatever
    the two graphs are (C12, and the structural part of C11).

    [merge_rec] is a depth-first search of the right graph whose visited set
    is the key set of the mapping ([dfs_post], which speaks about the mapping
    and the graph searched only: XMergeFacts.v uses it for the extended merge);
    the fuel [cap_of h + 2] handed in by [op_merge] is never the reason why the
    call stops; the verdict of [op_merge] is read off the final mapping
    ([answers]); the left graph afterwards is the result of a sequence of
    [add]/[bind]/[put]/[next_id] calls ([calls]).  The right graph is [h]
    throughout, the left graph [s]. *)

From Sodg Require Export Merge Inv Reach.
From Coq Require Export Sorting.Sorted.

Definition keys (m : mapping) : list nat := map fst m.

Lemma keys_app e m : keys (e ++ m) = keys e ++ keys m.
Proof. apply map_app. Qed.

Lemma in_keys_app e m x : In x (keys (e ++ m)) <-> In x (keys e) \/ In x (keys m).
Proof. rewrite keys_app. apply in_app_iff. Qed.

Lemma map_get_none m k : map_get m k = None <-> ~ In k (keys m).
Proof.
  unfold keys. induction m as [|[a b] t IH]; cbn [map_get map fst In]; [tauto|].
  destruct (Nat.eqb_spec a k) as [->|Hne].
  - split; [discriminate|]. intros H. exfalso. apply H. left; reflexivity.
  - rewrite IH. tauto.
Qed.

Lemma map_get_key_some m k : In k (keys m) -> exists v, map_get m k = Some v.
Proof.
  intros H. destruct (map_get m k) as [v|] eqn:E; [eauto|].
  apply map_get_none in E. contradiction.
Qed.

Lemma map_get_some_in m k v : map_get m k = Some v -> In (k, v) m.
Proof.
  induction m as [|[a b] t IH]; cbn [map_get]; [discriminate|].
  destruct (Nat.eqb_spec a k) as [->|Hne].
  - intros H; injection H as ->. left; reflexivity.
  - intros H. right. apply IH; exact H.
Qed.

Lemma map_get_some_key m k v : map_get m k = Some v -> In k (keys m).
Proof. intros H. exact (in_map fst _ _ (map_get_some_in _ _ _ H)). Qed.

Lemma map_get_app e m k :
  map_get (e ++ m) k = match map_get e k with Some x => Some x | None => map_get m k end.
Proof.
  induction e as [|[a b] t IH]; cbn [map_get app]; [reflexivity|].
  destruct (a =? k); [reflexivity|exact IH].
Qed.

Lemma map_get_app_l e m k v : map_get e k = Some v -> map_get (e ++ m) k = Some v.
Proof. intros H. rewrite map_get_app, H. reflexivity. Qed.

Lemma map_get_app_r e m k : ~ In k (keys e) -> map_get (e ++ m) k = map_get m k.
Proof. intros H. apply map_get_none in H. rewrite map_get_app, H. reflexivity. Qed.

Lemma map_get_app_cases e2 e1 u v :
  map_get (e2 ++ e1) u = Some v ->
  map_get e2 u = Some v \/ (map_get e2 u = None /\ map_get e1 u = Some v).
Proof. rewrite map_get_app. destruct (map_get e2 u); [left; assumption|right; split; auto]. Qed.

Lemma map_get_app_disj e2 e1 :
  (forall x, In x (keys e1) -> ~ In x (keys e2)) ->
  forall u v, map_get e1 u = Some v -> map_get (e2 ++ e1) u = Some v.
Proof.
  intros KD u v H. rewrite map_get_app_r; [exact H|]. apply KD. eapply map_get_some_key; eauto.
Qed.

Lemma map_get_single r l u v : map_get [(r, l)] u = Some v <-> u = r /\ v = l.
Proof.
  cbn [map_get]. destruct (Nat.eqb_spec r u) as [->|N]; split.
  - intros H. injection H as <-. auto.
  - intros [_ ->]. reflexivity.
  - discriminate.
  - intros [-> _]. contradiction.
Qed.

(** ** the loop of [merge_rec] as a named function *)

Definition attach (n : nat) (s : sodg) (left : nat) (a : label) (k mt : option nat)
  : outcome (sodg * nat) :=
  match k with
  | Some t => Ok (s, t)
  | None =>
      match mt with
      | Some t => s' <- op_bind n s left t a ;; Ok (s', t)
      | None =>
          r <- op_next_id s ;;
          s' <- op_add (fst r) (snd r) ;;
          s'' <- op_bind n s' left (snd r) a ;;
          Ok (s'', snd r)
      end
  end.

Section Go.
  Variable rec : sodg -> nat -> nat -> mapping -> outcome (sodg * mapping).
  Variable n : nat.
  Variable left : nat.

  Fixpoint mgo (es : edges) (s : sodg) (m : mapping) {struct es} : outcome (sodg * mapping) :=
    match es with
    | [] => Ok (s, m)
    | (a, to) :: rest =>
        k <- op_kid s left a ;;
        sm <- attach n s left a k (map_get m to) ;;
        r <- rec (fst sm) (snd sm) to m ;;
        mgo rest (fst r) (snd r)
    end.
End Go.

Lemma merge_rec_S f n g s left right m :
  merge_rec (S f) n g s left right m =
  match map_get m right with
  | Some _ => Ok (s, m)
  | None =>
      _ <- chk_v g right ;;
      s1 <- (if has_data g right then op_put s left (dat g right) else Ok s) ;;
      _ <- chk_v g right ;;
      r <- mgo (merge_rec f n g) n left (edg g right) s1 ((right, left) :: m) ;;
      _ <- check_joins (fst r) left (snd r) (edg g right) ;;
      Ok r
  end.
Proof. reflexivity. Qed.

(** ** the depth-first search *)

(** [pav K]: the edges whose target is not in [K] *)
Definition pav (K : list nat) : pred := fun _ w _ => negb (mem w K).

Lemma pav_true K x y a : pav K x y a = true <-> ~ In y K.
Proof. unfold pav. rewrite negb_true_iff. apply mem_false. Qed.

Lemma reach_pav_incl K1 K2 g v u : incl K1 K2 -> reach (pav K2) g v u -> reach (pav K1) g v u.
Proof. intros Hi. apply reach_mono. intros x y a. rewrite !pav_true. auto. Qed.

Lemma reach_pav_nil g v u : reach (pav []) g v u <-> reach ptrue g v u.
Proof. split; apply reach_mono; intros; reflexivity. Qed.

Lemma reach_pav_ptrue K g v u : reach (pav K) g v u -> reach ptrue g v u.
Proof. apply reach_mono. intros; reflexivity. Qed.

Section Dfs.
  (** [h] is the graph searched; [P] is what the search has checked of every
      vertex it entered (for [merge_rec]: it is a slot of [h]) *)
  Variable P : nat -> Prop.
  Variable h : sodg.

  (** what a search from [roots], one after the other, has done to the mapping
      [m] when it returns [m']: [ext] are the entries it added *)
  Record dfs_post (roots : list nat) (m m' ext : mapping) : Prop := {
    dp_eq : m' = ext ++ m;
    dp_nodup : NoDup (keys ext);
    dp_fresh : forall x, In x (keys ext) -> ~ In x (keys m);
    dp_reach : forall x, In x (keys ext) ->
               exists r, In r roots /\ ~ In r (keys m) /\ reach (pav (keys m)) h r x;
    dp_closed : forall u a w, In u (keys ext) -> In (a, w) (edg h u) -> In w (keys m');
    dp_roots : forall r, In r roots -> In r (keys m');
    dp_checked : forall x, In x (keys ext) -> P x
  }.

  Lemma dfs_incl roots m m' ext : dfs_post roots m m' ext -> incl (keys m) (keys m').
  Proof. intros D x Hx. rewrite (dp_eq _ _ _ _ D). apply in_keys_app. right. exact Hx. Qed.

  Lemma dfs_idle roots m : incl roots (keys m) -> dfs_post roots m m [].
  Proof.
    intros H.
    split; cbn [app keys map]; [reflexivity|constructor|intros ? []|intros ? []|intros ? ? ? []|
                                exact H|intros ? []].
  Qed.

  Lemma dfs_cons r rs m m1 m' e1 e2 :
    dfs_post [r] m m1 e1 -> dfs_post rs m1 m' e2 -> dfs_post (r :: rs) m m' (e2 ++ e1).
  Proof.
    intros D1 D2. pose proof (dfs_incl _ _ _ _ D1) as Hinc.
    destruct D1 as [E1 N1 F1 R1 C1 T1 L1], D2 as [E2 N2 F2 R2 C2 T2 L2]. split.
    - subst m' m1. apply app_assoc.
    - rewrite keys_app. apply nodup_app. split; [exact N2|]. split; [exact N1|].
      intros x H2 H1. apply (F2 x H2). subst m1. apply in_keys_app. left. exact H1.
    - intros x Hx. apply in_keys_app in Hx as [Hx|Hx]; [|auto].
      intros Hm. exact (F2 x Hx (Hinc x Hm)).
    - intros x Hx. apply in_keys_app in Hx as [Hx|Hx].
      + destruct (R2 x Hx) as (r' & Hi & Hn & Hr). exists r'. split; [right; exact Hi|].
        split; [intros Hm; exact (Hn (Hinc _ Hm))|]. exact (reach_pav_incl _ _ _ _ _ Hinc Hr).
      + destruct (R1 x Hx) as (r' & [<-|[]] & Hn). exists r. split; [left; reflexivity|exact Hn].
    - intros u b w Hu Hi. apply in_keys_app in Hu as [Hu|Hu]; [eauto|].
      subst m'. apply in_keys_app. right. eauto.
    - intros r' [<-|Hi]; [|auto]. subst m'. apply in_keys_app. right. apply T1. left; reflexivity.
    - intros x Hx. apply in_keys_app in Hx as [Hx|Hx]; auto.
  Qed.

  Lemma dfs_node r l m m' ext :
    ~ In r (keys m) -> P r ->
    dfs_post (map snd (edg h r)) ((r, l) :: m) m' ext ->
    dfs_post [r] m m' (ext ++ [(r, l)]).
  Proof.
    intros G Pr [E N F R C T L]. cbn [keys map fst] in F, R. fold (keys m) in F, R. split.
    - subst m'. rewrite <- app_assoc. reflexivity.
    - rewrite keys_app. apply nodup_snoc; [exact N|].
      intros Hx. apply (F r Hx). left; reflexivity.
    - intros x Hx. apply in_keys_app in Hx as [Hx|[<-|[]]]; [|exact G].
      intros Hm. apply (F x Hx). right. exact Hm.
    - intros x Hx. exists r. split; [left; reflexivity|]. split; [exact G|].
      apply in_keys_app in Hx as [Hx|[<-|[]]]; [|apply reach_refl].
      destruct (R x Hx) as (to & Hi & Hn & Hr). apply in_map_iff in Hi as ([a to'] & Eto & Hi).
      cbn [snd] in Eto. subst to'. eapply reach_trans.
      + eapply reach_edge; [exact Hi|]. apply pav_true. intros Hm. apply Hn. right. exact Hm.
      + eapply reach_pav_incl; [|exact Hr]. intros y Hy; right; exact Hy.
    - intros u a w Hu Hi. apply in_keys_app in Hu as [Hu|[<-|[]]]; [eauto|].
      apply T. exact (in_map snd _ _ Hi).
    - intros r' [<-|[]]. subst m'. apply in_keys_app. right. left. reflexivity.
    - intros x Hx. apply in_keys_app in Hx as [Hx|[<-|[]]]; auto.
  Qed.

  Lemma dfs_keys r m m' ext :
    dfs_post [r] m m' ext ->
    forall u, In u (keys m') <->
              In u (keys m) \/ (~ In r (keys m) /\ reach (pav (keys m)) h r u).
  Proof.
    intros [E N F R C T L] u. subst m'. rewrite in_keys_app. split.
    - intros [Hu|Hu]; [right|left; exact Hu]. destruct (R u Hu) as (r' & [<-|[]] & Hn). exact Hn.
    - intros [Hu|[Hn Hr]]; [right; exact Hu|left].
      (* the keys added contain [r] and are closed under the edges that avoid the old keys *)
      apply (reach_in_closed_set (pav (keys m)) h r (fun x => In x (keys ext))); [| |exact Hr].
      + specialize (T r (or_introl eq_refl)). apply in_keys_app in T as [T|T]; [exact T|contradiction].
      + intros x a w Hx Hi Hp. apply pav_true in Hp. apply (C x a w Hx) in Hi.
        apply in_keys_app in Hi as [Hi|Hi]; [exact Hi|contradiction].
  Qed.

  Lemma dfs_top r m' ext :
    dfs_post [r] [] m' ext ->
    (forall u, In u (keys m') <-> reach ptrue h r u)
    /\ NoDup (keys m') /\ (forall u, In u (keys m') -> P u).
  Proof.
    intros D. split.
    - intros u. rewrite (dfs_keys _ _ _ _ D u). cbn [keys map]. rewrite reach_pav_nil.
      split; [intros [[]|[_ Hr]]; exact Hr|]. intros Hr. right. split; [intros []|exact Hr].
    - destruct D as [E N F R C T L]. subst m'. rewrite app_nil_r. split; assumption.
  Qed.
End Dfs.

(** the loop of [merge_rec] searches from the targets of [es], one after the
    other, if [rec] searches from one *)
Lemma mgo_dfs P h (rec : sodg -> nat -> nat -> mapping -> outcome (sodg * mapping)) n left :
  (forall s l r m s' m', rec s l r m = Ok (s', m') -> exists ext, dfs_post P h [r] m m' ext) ->
  forall es s m s' m',
    mgo rec n left es s m = Ok (s', m') -> exists ext, dfs_post P h (map snd es) m m' ext.
Proof.
  intros HP es. induction es as [|[a to] rest IH]; intros s m s' m' H; cbn [mgo] in H.
  - injection H as <- <-. exists []. apply dfs_idle, incl_nil_l.
  - apply obind_ok in H as (k & _ & H).
    apply obind_ok in H as (sm & _ & H).
    apply obind_ok in H as ([s1 m1] & Hrec & H). cbn [fst snd] in H.
    destruct (HP _ _ _ _ _ _ Hrec) as (e1 & D1). destruct (IH _ _ _ _ H) as (e2 & D2).
    exists (e2 ++ e1). exact (dfs_cons _ _ _ _ _ _ _ _ _ D1 D2).
Qed.

(** [merge_rec] is such a search: the only thing it asks of a vertex before
    entering it is that it is a slot of the right graph *)
Lemma merge_rec_dfs n h : forall f s left right m s' m',
  merge_rec f n h s left right m = Ok (s', m') ->
  exists ext, dfs_post (fun x => x < cap_of h) h [right] m m' ext.
Proof.
  induction f as [|f IHf]; intros s left right m s' m' H; [discriminate|].
  rewrite merge_rec_S in H.
  destruct (map_get m right) as [t|] eqn:G.
  - injection H as <- <-. exists []. apply dfs_idle. intros r [<-|[]]. eapply map_get_some_key; eauto.
  - apply map_get_none in G.
    apply obind_ok in H as ([] & Hc & H). apply chk_v_inv in Hc.
    apply obind_ok in H as (s1 & _ & H).
    apply obind_ok in H as (u2 & _ & H).
    apply obind_ok in H as ([s2 m2] & Hgo & H).
    apply obind_ok in H as (u3 & _ & H). injection H as <- <-.
    destruct (mgo_dfs _ h _ n left IHf _ _ _ _ _ Hgo) as (ext & D).
    exists (ext ++ [(right, left)]). apply dfs_node; assumption.
Qed.

(** the keys after a call are what the search has visited, whatever mapping
    is handed in *)
Theorem merge_rec_keys_gen f n h s left right m s' m' :
  merge_rec f n h s left right m = Ok (s', m') ->
  forall u, In u (keys m') <->
            In u (keys m) \/ (~ In right (keys m) /\ reach (pav (keys m)) h right u).
Proof.
  intros H. destruct (merge_rec_dfs n h f _ _ _ _ _ _ H) as (ext & D). exact (dfs_keys _ _ _ _ _ _ D).
Qed.

(** the top-level call starts from the empty mapping *)
Lemma merge_rec_top f n h s left right s' m' :
  merge_rec f n h s left right [] = Ok (s', m') ->
  (forall u, In u (keys m') <-> reach ptrue h right u)
  /\ NoDup (keys m') /\ (forall u, In u (keys m') -> u < cap_of h).
Proof.
  intros H. destruct (merge_rec_dfs n h f _ _ _ _ _ _ H) as (ext & D). exact (dfs_top _ _ _ _ _ D).
Qed.

Theorem merge_rec_keys f n h s left right s' m' :
  merge_rec f n h s left right [] = Ok (s', m') ->
  forall u, In u (keys m') <-> reach ptrue h right u.
Proof. intros H. apply (merge_rec_top _ _ _ _ _ _ _ _ H). Qed.

Lemma merge_rec_keys_nodup f n h s left right s' m' :
  merge_rec f n h s left right [] = Ok (s', m') -> NoDup (keys m').
Proof. intros H. apply (merge_rec_top _ _ _ _ _ _ _ _ H). Qed.

Lemma merge_rec_keys_lt f n h s left right s' m' :
  merge_rec f n h s left right [] = Ok (s', m') -> forall u, In u (keys m') -> u < cap_of h.
Proof. intros H. apply (merge_rec_top _ _ _ _ _ _ _ _ H). Qed.

(** ** the fuel is never the reason why a call stops *)

(** the calls [merge_rec] makes have no fuel of their own ([fine]);
    [auto with nofuel] peels [obind]s and case distinctions off a goal
    [_ <> OutOfFuel] *)
Create HintDb nofuel.
#[export] Hint Resolve obind_fuel : nofuel.
#[export] Hint Extern 1 (_ <> OutOfFuel) => discriminate : nofuel.
#[export] Hint Extern 2 ((if ?c then _ else _) <> OutOfFuel) => destruct c : nofuel.
#[export] Hint Extern 2 (match ?c with Some _ => _ | None => _ end <> OutOfFuel) => destruct c : nofuel.
#[export] Hint Resolve fine_fuel fine_chk_v fine_chk_b fine_push_member fine_add_store fine_mm_insert
  fine_kid fine_add fine_put fine_next_id fine_bind : nofuel.

Lemma attach_fuel n s left a k mt : attach n s left a k mt <> OutOfFuel.
Proof. unfold attach. auto 7 with nofuel. Qed.

Lemma check_joins_fuel s left m es : check_joins s left m es <> OutOfFuel.
Proof. induction es as [|[a to] rest IH]; cbn [check_joins]; auto 6 with nofuel. Qed.

Lemma mgo_fuel n h f left :
  (forall s left right m, unseen (cap_of h) (keys m) < f -> merge_rec f n h s left right m <> OutOfFuel) ->
  forall es s m, unseen (cap_of h) (keys m) < f ->
                 mgo (merge_rec f n h) n left es s m <> OutOfFuel.
Proof.
  intros HP es. induction es as [|[a to] rest IH]; intros s m Hm; cbn [mgo]; [discriminate|].
  apply obind_fuel; [apply fine_fuel, fine_kid|].
  intros k _. apply obind_fuel; [apply attach_fuel|].
  intros sm _. apply obind_fuel; [apply HP; exact Hm|].
  intros [s1 m1] Hrec. cbn [fst snd]. apply IH.
  destruct (merge_rec_dfs n h f _ _ _ _ _ _ Hrec) as (ext & D).
  eapply Nat.le_lt_trans; [|exact Hm]. apply unseen_le. exact (dfs_incl _ _ _ _ _ _ D).
Qed.

(** every level that gets past the first test enters a slot of the right
    graph that was not a key *)
Lemma merge_rec_fuel n h : forall f s left right m,
  unseen (cap_of h) (keys m) < f -> merge_rec f n h s left right m <> OutOfFuel.
Proof.
  induction f as [|f IHf]; intros s left right m Hm; [lia|].
  rewrite merge_rec_S. destruct (map_get m right) eqn:G; [discriminate|].
  apply map_get_none in G.
  apply obind_fuel; [apply fine_fuel, fine_chk_v|].
  intros [] Hc. apply chk_v_inv in Hc.
  apply obind_fuel; [auto with nofuel|].
  intros s1 _. apply obind_fuel; [apply fine_fuel, fine_chk_v|].
  intros u2 _. apply obind_fuel.
  { apply mgo_fuel; [exact IHf|]. pose proof (unseen_cons _ _ _ Hc G). cbn [keys map fst]. fold (keys m). lia. }
  intros r _. apply obind_fuel; [apply check_joins_fuel|discriminate].
Qed.

(** ** the mapping exposed, and [op_merge] as its projection *)

Definition op_merge_mapped (n : nat) (s g : sodg) (left right : nat) : outcome (sodg * mapping) :=
  merge_rec (cap_of g + 2) n g s left right [].

Definition verdict (g : sodg) (m : mapping) : option (list nat) :=
  let seen := dedup_keys m in
  if length seen =? length (op_keys g) then None
  else Some (filter (fun v => negb (mem v seen)) (op_keys g)).

Lemma op_merge_projection n s g left right :
  op_merge n s g left right =
  (r <- op_merge_mapped n s g left right ;; Ok (fst r, verdict g (snd r))).
Proof.
  unfold op_merge, op_merge_mapped, verdict.
  destruct (merge_rec _ _ _ _ _ _ _) as [[s' m']| | |]; cbn [obind fst snd]; try reflexivity.
  destruct (_ =? _); reflexivity.
Qed.

Lemma op_merge_inv n s g left right s' r :
  op_merge n s g left right = Ok (s', r) ->
  exists m', op_merge_mapped n s g left right = Ok (s', m') /\ r = verdict g m'.
Proof.
  rewrite op_merge_projection. intros H. apply obind_ok in H as ([s1 m1] & E & H).
  cbn [fst snd] in H. injection H as <- <-. eauto.
Qed.

(** for the examples: one evaluation of the merge gives both forms of the answer *)
Lemma op_merge_both n s g left right s' m' r :
  op_merge_mapped n s g left right = Ok (s', m') -> verdict g m' = r ->
  op_merge n s g left right = Ok (s', r) /\ op_merge_mapped n s g left right = Ok (s', m').
Proof. intros E <-. split; [rewrite op_merge_projection, E; reflexivity|exact E]. Qed.

Theorem op_merge_mapped_fuel n s h left right : op_merge_mapped n s h left right <> OutOfFuel.
Proof. unfold op_merge_mapped. apply merge_rec_fuel. cbn [keys map]. rewrite unseen_nil. lia. Qed.

Theorem op_merge_fuel n s h left right : op_merge n s h left right <> OutOfFuel.
Proof. rewrite op_merge_projection. apply obind_fuel; [apply op_merge_mapped_fuel|discriminate]. Qed.

(** ** the verdict *)

Lemma dedup_keys_in m x : In x (dedup_keys m) <-> In x (keys m).
Proof.
  unfold keys. induction m as [|[k v] t IH]; cbn [dedup_keys map fst In]; [tauto|].
  destruct (mem k (dedup_keys t)) eqn:M.
  - apply mem_In in M. rewrite IH. split; [tauto|]. intros [E|H]; [subst; apply IH; exact M|exact H].
  - cbn [In]. rewrite IH. tauto.
Qed.

Lemma dedup_keys_nodup m : NoDup (dedup_keys m).
Proof.
  induction m as [|[k v] t IH]; cbn [dedup_keys]; [constructor|].
  destruct (mem k (dedup_keys t)) eqn:M; [exact IH|].
  apply mem_false in M. constructor; assumption.
Qed.

(** the right graph as [merge] expects to be able to walk it: [right] is a
    slot, everything reachable from it is present and points to slots *)
Definition hclosed (h : sodg) (right : nat) : Prop :=
  right < cap_of h /\
  forall u, reach ptrue h right u ->
            tag h u <> 0 /\ forall a w, In (a, w) (edg h u) -> w < cap_of h.

(** [hclosed] says no more than: everything reachable from [right] is present
    (an id beyond the capacity reads as the blank vertex, tag 0) *)
Lemma hclosed_iff_present h right :
  hclosed h right <-> (forall u, reach ptrue h right u -> tag h u <> 0).
Proof.
  split.
  - intros [_ Hc] u Hu. exact (proj1 (Hc u Hu)).
  - intros Hp. split; [apply tag_nonzero_lt, Hp, reach_refl|].
    intros u Hu. split; [apply Hp; exact Hu|].
    intros a w Hi. apply tag_nonzero_lt, Hp. eapply reach_step; eauto.
Qed.

Lemma verdict_some_spec h m missed :
  verdict h m = Some missed ->
  (forall v, In v missed <-> (v < cap_of h /\ tag h v <> 0 /\ ~ In v (keys m)))
  /\ StronglySorted lt missed.
Proof.
  unfold verdict. destruct (_ =? _); [discriminate|]. intros H; injection H as <-. split.
  - intros v. rewrite filter_In, in_op_keys, negb_true_iff, mem_false, dedup_keys_in. tauto.
  - apply filter_ssorted. apply keys_sorted.
Qed.

(** comparing two numbers is enough to know that nothing is missed because the
    distinct keys are among the present vertices of [h]: this is where
    [hclosed] is needed *)
Lemma verdict_none_iff h right m :
  hclosed h right -> (forall u, In u (keys m) <-> reach ptrue h right u) ->
  (verdict h m = None <-> forall v, v < cap_of h -> tag h v <> 0 -> reach ptrue h right v).
Proof.
  intros Hc Hk.
  assert (Hsm : incl (dedup_keys m) (op_keys h)).
  { intros x Hx. apply dedup_keys_in, Hk in Hx. apply (proj1 (hclosed_iff_present _ _) Hc) in Hx.
    apply in_op_keys. split; [apply tag_nonzero_lt; exact Hx|exact Hx]. }
  assert (Hms : incl (op_keys h) (dedup_keys m) <->
                forall v, v < cap_of h -> tag h v <> 0 -> reach ptrue h right v).
  { split.
    - intros Hi v Hl Ht. apply Hk, dedup_keys_in, Hi, in_op_keys. split; assumption.
    - intros Ha x Hx. apply in_op_keys in Hx as [Hl Ht]. apply dedup_keys_in, Hk, Ha; assumption. }
  rewrite <- Hms. unfold verdict.
  destruct (Nat.eqb_spec (length (dedup_keys m)) (length (op_keys h))) as [E|E].
  - split; [intros _|reflexivity]. apply NoDup_length_incl; [apply dedup_keys_nodup|lia|exact Hsm].
  - split; [discriminate|]. intros Hi. exfalso. apply E.
    apply Nat.le_antisymm; apply NoDup_incl_length; auto using dedup_keys_nodup, op_keys_nodup.
Qed.

(** an answer [r] of [merge] about the right graph [h] walked from [right]:
    [None] (that is [Ok(())]) exactly when every present vertex was reached,
    otherwise the present vertices that were not, in ascending order.  Only the
    first part needs [hclosed]. *)
Definition answers (h : sodg) (right : nat) (r : option (list nat)) : Prop :=
  (hclosed h right ->
   (r = None <-> forall v, v < cap_of h -> tag h v <> 0 -> reach ptrue h right v))
  /\ forall missed, r = Some missed ->
       (forall v, In v missed <-> (v < cap_of h /\ tag h v <> 0 /\ ~ reach ptrue h right v))
       /\ StronglySorted lt missed.

Lemma verdict_answers h right m :
  (forall u, In u (keys m) <-> reach ptrue h right u) -> answers h right (verdict h m).
Proof.
  intros Hk. split; [intros Hc; apply verdict_none_iff; assumption|].
  intros missed E. destruct (verdict_some_spec h m missed E) as [A B]. split; [|exact B].
  intros v. rewrite A, Hk. tauto.
Qed.

(** the three readings of an answer that C12 states *)
Lemma answers_ok_complete h right :
  answers h right None -> hclosed h right ->
  forall v, tag h v <> 0 -> v < cap_of h -> reach ptrue h right v.
Proof. intros [A _] Hc v Ht Hl. exact (proj1 (A Hc) eq_refl v Hl Ht). Qed.

Lemma answers_all_reached h right r :
  answers h right r -> hclosed h right ->
  (forall v, v < cap_of h -> tag h v <> 0 -> reach ptrue h right v) -> r = None.
Proof. intros [A _] Hc. apply (A Hc). Qed.

Lemma answers_missed h right r :
  answers h right r -> hclosed h right ->
  (exists v, v < cap_of h /\ tag h v <> 0 /\ ~ reach ptrue h right v) ->
  exists missed,
    r = Some missed
    /\ (forall v, In v missed <-> (v < cap_of h /\ tag h v <> 0 /\ ~ reach ptrue h right v))
    /\ StronglySorted lt missed.
Proof.
  intros [A B] Hc (v & Hl & Ht & Hn). destruct r as [missed|].
  - exists missed. split; [reflexivity|]. apply B. reflexivity.
  - exfalso. apply Hn. exact (proj1 (A Hc) eq_refl v Hl Ht).
Qed.

Theorem op_merge_answers n s h left right s' r :
  op_merge n s h left right = Ok (s', r) -> answers h right r.
Proof.
  intros H. apply op_merge_inv in H as (m' & Hm & ->).
  apply verdict_answers. exact (merge_rec_keys _ _ _ _ _ _ _ _ Hm).
Qed.

(** the same readings, of the answer of [op_merge] *)
Theorem merge_ok_complete n s h left right s' :
  hclosed h right -> op_merge n s h left right = Ok (s', None) ->
  forall v, tag h v <> 0 -> v < cap_of h -> reach ptrue h right v.
Proof. intros Hc H. exact (answers_ok_complete h right (op_merge_answers _ _ _ _ _ _ _ H) Hc). Qed.

Lemma all_reached_mapped h right m :
  (forall u, In u (keys m) <-> reach ptrue h right u) ->
  (forall v, tag h v <> 0 -> v < cap_of h -> reach ptrue h right v) ->
  forall v, tag h v <> 0 -> map_get m v <> None.
Proof.
  intros Hk Hall v Ht. rewrite map_get_none. intros Hn.
  apply Hn, Hk, Hall; [exact Ht|apply tag_nonzero_lt; exact Ht].
Qed.

Theorem merge_ok_mapped n s h left right s' :
  hclosed h right -> op_merge n s h left right = Ok (s', None) ->
  exists m', op_merge_mapped n s h left right = Ok (s', m')
             /\ forall v, tag h v <> 0 -> map_get m' v <> None.
Proof.
  intros Hc H. pose proof (merge_ok_complete _ _ _ _ _ _ Hc H) as Hall.
  apply op_merge_inv in H as (m' & Hm & _). exists m'. split; [exact Hm|].
  exact (all_reached_mapped h right m' (merge_rec_keys _ _ _ _ _ _ _ _ Hm) Hall).
Qed.

Theorem merge_err_names_missed n s h left right s' r :
  hclosed h right -> op_merge n s h left right = Ok (s', r) ->
  (exists v, v < cap_of h /\ tag h v <> 0 /\ ~ reach ptrue h right v) ->
  exists missed,
    r = Some missed
    /\ (forall v, In v missed <-> (v < cap_of h /\ tag h v <> 0 /\ ~ reach ptrue h right v))
    /\ StronglySorted lt missed.
Proof. intros Hc H. exact (answers_missed h right r (op_merge_answers _ _ _ _ _ _ _ H) Hc). Qed.

Theorem merge_all_reached_ok n s h left right s' r :
  hclosed h right -> op_merge n s h left right = Ok (s', r) ->
  (forall v, v < cap_of h -> tag h v <> 0 -> reach ptrue h right v) ->
  r = None.
Proof. intros Hc H. exact (answers_all_reached h right r (op_merge_answers _ _ _ _ _ _ _ H) Hc). Qed.

(** ** the left graph afterwards *)

Definition prim_op (o : op) : Prop :=
  match o with
  | OAdd _ | OBind _ _ _ | OPut _ _ | ONext => True
  | _ => False
  end.

(** [s'] is obtained from [s] by calls of [add]/[bind]/[put]/[next_id] only *)
Definition calls (n : nat) (s s' : sodg) : Prop :=
  exists ops rs, Forall prim_op ops /\ run n s ops = Ok (s', rs).

Lemma run_app n : forall o1 s s1 r1 o2 s2 r2,
  run n s o1 = Ok (s1, r1) -> run n s1 o2 = Ok (s2, r2) -> run n s (o1 ++ o2) = Ok (s2, r1 ++ r2).
Proof.
  induction o1 as [|o t IH]; intros s s1 r1 o2 s2 r2 H1 H2; cbn [run app] in *.
  - injection H1 as <- <-. exact H2.
  - apply obind_ok in H1 as ([sa ra] & Ha & H1). cbn [fst snd] in H1.
    apply obind_ok in H1 as ([sb rb] & Hb & H1). cbn [fst snd] in H1. injection H1 as <- <-.
    rewrite Ha. cbn [obind fst snd]. rewrite (IH _ _ _ _ _ _ Hb H2). reflexivity.
Qed.

Lemma calls_refl n s : calls n s s.
Proof. exists [], []. split; [constructor|reflexivity]. Qed.

Lemma calls_trans n a b c : calls n a b -> calls n b c -> calls n a c.
Proof.
  intros (o1 & r1 & F1 & R1) (o2 & r2 & F2 & R2). exists (o1 ++ o2), (r1 ++ r2). split.
  - apply Forall_app. split; assumption.
  - eapply run_app; eauto.
Qed.

Lemma calls_one n s o s' r : prim_op o -> step n s o = Ok (s', r) -> calls n s s'.
Proof.
  intros P H. exists [o], [r]. split; [constructor; [exact P|constructor]|].
  cbn [run]. rewrite H. reflexivity.
Qed.

Lemma calls_put n s v d s' : op_put s v d = Ok s' -> calls n s s'.
Proof. intros H. apply (calls_one n s (OPut v d) s' RUnit I). cbn [step]. rewrite H. reflexivity. Qed.

Lemma calls_bind n s v1 v2 a s' : op_bind n s v1 v2 a = Ok s' -> calls n s s'.
Proof. intros H. apply (calls_one n s (OBind v1 v2 a) s' RUnit I). cbn [step]. rewrite H. reflexivity. Qed.

Lemma calls_add n s v s' : op_add s v = Ok s' -> calls n s s'.
Proof. intros H. apply (calls_one n s (OAdd v) s' RUnit I). cbn [step]. rewrite H. reflexivity. Qed.

Lemma calls_next n s s' id : op_next_id s = Ok (s', id) -> calls n s s'.
Proof. intros H. apply (calls_one n s ONext s' (RId id) I). cbn [step]. rewrite H. reflexivity. Qed.

Lemma attach_calls n s left a k mt s' t : attach n s left a k mt = Ok (s', t) -> calls n s s'.
Proof.
  unfold attach. destruct k as [x|].
  - intros H; injection H as <- <-. apply calls_refl.
  - destruct mt as [x|].
    + intros H. apply obind_ok in H as (s1 & Hb & H). injection H as <- <-. eapply calls_bind; eauto.
    + intros H. apply obind_ok in H as ([s1 id] & Hn & H). cbn [fst snd] in H.
      apply obind_ok in H as (s2 & Ha & H). apply obind_ok in H as (s3 & Hb & H). injection H as <- <-.
      eapply calls_trans; [eapply calls_next; eauto|].
      eapply calls_trans; [eapply calls_add; eauto|]. eapply calls_bind; eauto.
Qed.

Lemma mgo_calls (rec : sodg -> nat -> nat -> mapping -> outcome (sodg * mapping)) n left :
  (forall s l r m s' m', rec s l r m = Ok (s', m') -> calls n s s') ->
  forall es s m s' m', mgo rec n left es s m = Ok (s', m') -> calls n s s'.
Proof.
  intros Hrec. induction es as [|[a to] rest IH]; intros s m s' m' H; cbn [mgo] in H.
  - injection H as <- <-. apply calls_refl.
  - apply obind_ok in H as (k & _ & H).
    apply obind_ok in H as ([sa t] & Hat & H). cbn [fst snd] in H.
    apply obind_ok in H as ([sb mb] & Hr & H). cbn [fst snd] in H.
    eapply calls_trans; [exact (attach_calls _ _ _ _ _ _ _ _ Hat)|].
    eapply calls_trans; [exact (Hrec _ _ _ _ _ _ Hr)|exact (IH _ _ _ _ H)].
Qed.

Theorem merge_rec_calls n h : forall f s left right m s' m',
  merge_rec f n h s left right m = Ok (s', m') -> calls n s s'.
Proof.
  induction f as [|f IHf]; intros s left right m s' m' H; [discriminate|].
  rewrite merge_rec_S in H. destruct (map_get m right).
  - injection H as <- <-. apply calls_refl.
  - apply obind_ok in H as (u1 & _ & H).
    apply obind_ok in H as (s1 & Hput & H).
    apply obind_ok in H as (u2 & _ & H).
    apply obind_ok in H as ([s2 m2] & Hgo & H).
    apply obind_ok in H as (u3 & _ & H). injection H as <- <-.
    eapply calls_trans; [|exact (mgo_calls _ n left IHf _ _ _ _ _ Hgo)].
    destruct (has_data h right); [exact (calls_put _ _ _ _ _ Hput)|].
    injection Hput as <-. apply calls_refl.
Qed.

Theorem op_merge_calls n s h left right s' r :
  op_merge n s h left right = Ok (s', r) -> calls n s s'.
Proof.
  intros H. apply op_merge_inv in H as (m' & Hm & _). eapply merge_rec_calls; eauto.
Qed.

(** ** a computable sufficient condition for [hclosed]: [right] is present and
    every edge of a present vertex points to a present vertex *)

Definition hclosedb (h : sodg) (right : nat) : bool :=
  negb (tag h right =? 0)
  && forallb (fun u => (tag h u =? 0)
                       || forallb (fun e : label * nat => negb (tag h (snd e) =? 0)) (edg h u))
             (iota (cap_of h)).

(** the second conjunct of [hclosedb] *)
Lemma edges_presentb_spec h :
  forallb (fun u => (tag h u =? 0)
                    || forallb (fun e : label * nat => negb (tag h (snd e) =? 0)) (edg h u))
          (iota (cap_of h)) = true
  <-> forall u a w, tag h u <> 0 -> In (a, w) (edg h u) -> tag h w <> 0.
Proof.
  rewrite forallb_forall. split.
  - intros H u a w Hu Hi.
    assert (Hin : In u (iota (cap_of h))).
    { unfold iota. apply in_seq. pose proof (tag_nonzero_lt h u Hu). lia. }
    specialize (H u Hin). apply orb_true_iff in H as [H|H].
    + apply Nat.eqb_eq in H. contradiction.
    + rewrite forallb_forall in H. specialize (H (a, w) Hi). cbn [snd] in H.
      apply negb_true_iff, Nat.eqb_neq in H. exact H.
  - intros H u _. destruct (Nat.eqb_spec (tag h u) 0) as [Z|NZ]; [reflexivity|]. cbn [orb].
    apply forallb_forall. intros [a w] Hi. cbn [snd].
    apply negb_true_iff, Nat.eqb_neq. exact (H u a w NZ Hi).
Qed.

Lemma hclosedb_hclosed h right : hclosedb h right = true -> hclosed h right.
Proof.
  unfold hclosedb. intros H. apply andb_true_iff in H as [H1 H2].
  apply negb_true_iff, Nat.eqb_neq in H1. rewrite edges_presentb_spec in H2.
  apply hclosed_iff_present.
  apply (reach_in_closed_set ptrue h right (fun u => tag h u <> 0)); [exact H1|].
  intros u a w Hu Hi _. exact (H2 u a w Hu Hi).
Qed.

(** build a graph by a list of calls (for the examples) *)
Definition build (n cap : nat) (ops : list op) : sodg :=
  match run n (op_empty cap) ops with Ok (g, _) => g | _ => op_empty 0 end.

Print Assumptions hclosed_iff_present.
