(** * LabelFacts: facts about Label.v.  The derived order is a total order
    ([label_compare], [label_leb]).  Reading back a printed index gives the
    index ([parse_usize_print_dec], by Horner evaluation of the printed
    digits); from it, the round trips between label texts and label values of
    property C17 (P_C17.v). *)

From Sodg Require Import Label.
From Coq Require Import DecimalFacts.

Lemma lex_compare_refl a : lex_compare a a = Eq.
Proof.
  induction a as [|x s IH]; simpl; auto.
  rewrite N.compare_refl. exact IH.
Qed.

Lemma lex_compare_eq a : forall b, lex_compare a b = Eq -> a = b.
Proof.
  induction a as [|x s IH]; intros [|y t]; simpl; intros H; try discriminate; auto.
  destruct (N.compare_spec x y) as [->|_|_]; try discriminate.
  f_equal. apply IH. exact H.
Qed.

Lemma lex_compare_antisym a : forall b, lex_compare a b = CompOpp (lex_compare b a).
Proof.
  induction a as [|x s IH]; intros [|y t]; simpl; auto.
  rewrite (N.compare_antisym y x). destruct (y ?= x)%N; simpl; auto.
Qed.

Lemma lex_compare_lt_trans a :
  forall b d, lex_compare a b = Lt -> lex_compare b d = Lt -> lex_compare a d = Lt.
Proof.
  induction a as [|x s IH]; intros [|y t] [|z u]; simpl; intros H1 H2; try discriminate; auto.
  destruct (N.compare_spec x y) as [->|Lxy|_]; try discriminate.
  - destruct (y ?= z)%N; try discriminate; eauto.
  - assert (Lxz : (x ?= z)%N = Lt)
      by (apply N.compare_lt_iff; destruct (N.compare_spec y z); try discriminate; lia).
    rewrite Lxz. reflexivity.
Qed.

Lemma label_compare_refl a : label_compare a a = Eq.
Proof.
  destruct a; simpl; [apply N.compare_refl | apply N.compare_refl | apply lex_compare_refl].
Qed.

Lemma label_compare_eq a b : label_compare a b = Eq -> a = b.
Proof.
  destruct a as [x|x|x], b as [y|y|y]; simpl; intros H; try discriminate; f_equal.
  - apply N.compare_eq; exact H.
  - apply N.compare_eq; exact H.
  - apply lex_compare_eq; exact H.
Qed.

Lemma label_compare_eq_iff a b : label_compare a b = Eq <-> a = b.
Proof.
  split; [apply label_compare_eq|]. intros ->. apply label_compare_refl.
Qed.

Lemma label_compare_antisym a b : label_compare a b = CompOpp (label_compare b a).
Proof.
  destruct a as [x|x|x], b as [y|y|y]; simpl; auto.
  - apply N.compare_antisym.
  - apply N.compare_antisym.
  - apply lex_compare_antisym.
Qed.

Lemma label_compare_lt_trans a b c :
  label_compare a b = Lt -> label_compare b c = Lt -> label_compare a c = Lt.
Proof.
  destruct a as [x|x|x], b as [y|y|y], c as [z|z|z]; simpl; intros H1 H2;
    try discriminate; auto.
  - exact (N.lt_trans _ _ _ H1 H2).
  - exact (N.lt_trans _ _ _ H1 H2).
  - eapply lex_compare_lt_trans; eauto.
Qed.

Lemma label_compare_gt_lt a b : label_compare a b = Gt <-> label_compare b a = Lt.
Proof.
  rewrite (label_compare_antisym a b).
  destruct (label_compare b a); simpl; split; intros H; try discriminate; reflexivity.
Qed.

Lemma label_compare_trans c a b d :
  label_compare a b = c -> label_compare b d = c -> label_compare a d = c.
Proof.
  destruct c; intros H1 H2.
  - apply label_compare_eq in H1, H2. subst. apply label_compare_refl.
  - eapply label_compare_lt_trans; eauto.
  - apply label_compare_gt_lt in H1, H2. apply label_compare_gt_lt.
    eapply label_compare_lt_trans; eauto.
Qed.

Lemma label_leb_refl a : label_leb a a = true.
Proof. unfold label_leb. rewrite label_compare_refl. reflexivity. Qed.

Lemma label_leb_total a b : label_leb a b = false -> label_leb b a = true.
Proof.
  unfold label_leb. rewrite (label_compare_antisym b a).
  destruct (label_compare a b); simpl; intros H; try discriminate H; reflexivity.
Qed.

Lemma label_leb_antisym a b : label_leb a b = true -> label_leb b a = true -> a = b.
Proof.
  unfold label_leb. rewrite (label_compare_antisym b a).
  destruct (label_compare a b) eqn:E; simpl; intros H1 H2; try discriminate.
  apply label_compare_eq. exact E.
Qed.

Lemma label_leb_trans a b c :
  label_leb a b = true -> label_leb b c = true -> label_leb a c = true.
Proof.
  unfold label_leb.
  destruct (label_compare a b) eqn:E1; try discriminate; intros _.
  - apply label_compare_eq in E1 as ->. auto.
  - destruct (label_compare b c) eqn:E2; try discriminate; intros _.
    + apply label_compare_eq in E2 as <-. rewrite E1. reflexivity.
    + rewrite (label_compare_lt_trans _ _ _ E1 E2). reflexivity.
Qed.

Lemma is_digit_bounds c : is_digit c = true <-> (48 <= c <= 57)%N.
Proof.
  unfold is_digit. rewrite andb_true_iff, !N.leb_le. reflexivity.
Qed.

Lemma is_digit_not_alpha c : is_digit c = true -> c <> ch_alpha.
Proof. intros H ->. discriminate H. Qed.

(** one step of [parse_digits]: Horner evaluation, most significant digit
    first *)
Definition dstep (acc c : N) : N := acc * 10 + (c - 48).

Lemma parse_digits_spec l : forall acc,
  parse_digits acc l =
  if forallb is_digit l then Some (fold_left dstep l acc) else None.
Proof.
  induction l as [|c t IH]; intros acc; cbn [parse_digits forallb fold_left]; [reflexivity|].
  destruct (is_digit c); [apply IH | reflexivity].
Qed.

Lemma parse_digits_none_iff l acc :
  parse_digits acc l = None <-> exists c, In c l /\ is_digit c = false.
Proof.
  rewrite parse_digits_spec, <- forallb_false.
  destruct (forallb is_digit l); split; congruence.
Qed.

Lemma uint_digits_all_digits u : forallb is_digit (uint_digits u) = true.
Proof.
  induction u as [|u IH|u IH|u IH|u IH|u IH|u IH|u IH|u IH|u IH|u IH];
    cbn [uint_digits forallb]; [reflexivity|..]; rewrite IH; reflexivity.
Qed.

(** the printed digits of [u] evaluate to what the standard library reads
    from [u] *)
Lemma horner_uint_acc u : forall p,
  fold_left dstep (uint_digits u) (Npos p) = Npos (Pos.of_uint_acc u p).
Proof.
  induction u as [|u IH|u IH|u IH|u IH|u IH|u IH|u IH|u IH|u IH|u IH];
    intros p; cbn [uint_digits fold_left Pos.of_uint_acc]; [reflexivity|..];
    rewrite <- IH; f_equal; unfold dstep; lia.
Qed.

Lemma horner_uint u : fold_left dstep (uint_digits u) 0%N = N.of_uint u.
Proof.
  unfold N.of_uint.
  induction u as [|u IH|u IH|u IH|u IH|u IH|u IH|u IH|u IH|u IH|u IH];
    cbn [uint_digits fold_left Pos.of_uint]; [reflexivity | exact IH |..];
    rewrite <- horner_uint_acc; reflexivity.
Qed.

Lemma parse_digits_print_dec n : parse_digits 0 (print_dec n) = Some n.
Proof.
  unfold print_dec.
  rewrite parse_digits_spec, uint_digits_all_digits, horner_uint, DecimalN.Unsigned.of_to.
  reflexivity.
Qed.

Lemma print_dec_all_digits n : forallb is_digit (print_dec n) = true.
Proof. apply uint_digits_all_digits. Qed.

Lemma to_uint_unorm n : Decimal.unorm (N.to_uint n) = N.to_uint n.
Proof.
  rewrite <- (DecimalN.Unsigned.to_of (N.to_uint n)).
  rewrite DecimalN.Unsigned.of_to. reflexivity.
Qed.

Lemma print_dec_nonempty n : print_dec n <> [].
Proof.
  unfold print_dec. rewrite <- to_uint_unorm.
  pose proof (unorm_nonnil (N.to_uint n)) as H.
  destruct (Decimal.unorm (N.to_uint n)); [congruence | discriminate ..].
Qed.

Lemma print_dec_cons n :
  exists c r, print_dec n = c :: r /\ is_digit c = true /\ forallb is_digit r = true.
Proof.
  pose proof (print_dec_nonempty n) as Hne.
  pose proof (print_dec_all_digits n) as Hd.
  destruct (print_dec n) as [|c r]; [congruence|].
  cbn [forallb] in Hd. apply andb_true_iff in Hd as [Hc Hr].
  exists c, r; auto.
Qed.

Lemma print_dec_no_plus n : hd 0%N (print_dec n) <> ch_plus.
Proof.
  destruct (print_dec_cons n) as (c & r & E & Hc & _). rewrite E. cbn [hd].
  intros ->. discriminate Hc.
Qed.

Lemma print_dec_no_leading_zero n :
  print_dec n = [48%N] \/ hd 0%N (print_dec n) <> 48%N.
Proof.
  unfold print_dec. rewrite <- to_uint_unorm. unfold Decimal.unorm.
  pose proof (nzhead_nonzero (N.to_uint n)) as H.
  destruct (Decimal.nzhead (N.to_uint n));
    [left; reflexivity | edestruct H; reflexivity | right; discriminate ..].
Qed.

Definition strip_plus (l : text) : text :=
  match l with
  | c :: t => if (c =? ch_plus)%N then t else l
  | [] => []
  end.

Lemma parse_usize_strip_plus l :
  parse_usize l =
  match strip_plus l with
  | [] => None
  | _ :: _ => match parse_digits 0 (strip_plus l) with
              | Some n => if (n <=? usize_max)%N then Some n else None
              | None => None
              end
  end.
Proof. reflexivity. Qed.

Lemma strip_plus_nil l : strip_plus l = [] <-> l = [] \/ l = [ch_plus].
Proof.
  destruct l as [|x t]; cbn [strip_plus]; [tauto|].
  destruct (N.eqb_spec x ch_plus) as [->|Hne].
  - split; [intros ->; auto | intros [H|H]; congruence].
  - split; [discriminate | intros [H|H]; congruence].
Qed.

Lemma strip_plus_print_dec n : strip_plus (print_dec n) = print_dec n.
Proof.
  destruct (print_dec_cons n) as (c & r & E & Hc & _). rewrite E. cbn [strip_plus].
  destruct (N.eqb_spec c ch_plus) as [->|]; [discriminate Hc | reflexivity].
Qed.

Lemma parse_usize_some_iff l n :
  parse_usize l = Some n <->
  strip_plus l <> [] /\ parse_digits 0 (strip_plus l) = Some n /\ (n <= usize_max)%N.
Proof.
  rewrite parse_usize_strip_plus.
  destruct (strip_plus l) as [|c r].
  - split; [discriminate | intros (H & _); congruence].
  - destruct (parse_digits 0 (c :: r)) as [m|].
    + destruct (N.leb_spec m usize_max) as [Hle|Hgt]; split.
      * intros [= ->]. repeat split; auto; discriminate.
      * intros (_ & H & _); exact H.
      * discriminate.
      * intros (_ & [= ->] & Hle). lia.
    + split; [discriminate | intros (_ & H & _); discriminate H].
Qed.

Lemma parse_usize_none_iff l :
  parse_usize l = None <->
  l = [] \/ l = [ch_plus] \/
  (exists c, In c (strip_plus l) /\ is_digit c = false) \/
  (exists n, parse_digits 0 (strip_plus l) = Some n /\ (usize_max < n)%N).
Proof.
  rewrite parse_usize_strip_plus, <- (parse_digits_none_iff (strip_plus l) 0),
    <- or_assoc, <- strip_plus_nil.
  (* every disjunct speaks of [strip_plus l] *)
  destruct (strip_plus l) as [|c r]; [split; auto|].
  destruct (parse_digits 0 (c :: r)) as [m|]; [|split; auto].
  destruct (N.leb_spec m usize_max) as [Hle|Hgt]; split; eauto.
  intros [H|[H|(n & [= ->] & Hn)]]; try discriminate H. lia.
Qed.

Lemma parse_usize_after_sign l n :
  strip_plus l = print_dec n -> (n <= usize_max)%N -> parse_usize l = Some n.
Proof.
  intros E Hn. apply parse_usize_some_iff. rewrite E.
  auto using print_dec_nonempty, parse_digits_print_dec.
Qed.

Lemma parse_usize_print_dec n :
  (n <= usize_max)%N -> parse_usize (print_dec n) = Some n.
Proof. apply parse_usize_after_sign, strip_plus_print_dec. Qed.

(** an explicit sign is accepted too, though never printed *)
Lemma parse_usize_plus_print_dec n :
  (n <= usize_max)%N -> parse_usize (ch_plus :: print_dec n) = Some n.
Proof. apply parse_usize_after_sign. reflexivity. Qed.

Lemma parse_usize_overflow_plus_print_dec n :
  (usize_max < n)%N -> parse_usize (ch_plus :: print_dec n) = None.
Proof.
  intros Hn. apply parse_usize_none_iff. do 3 right. exists n.
  split; [apply parse_digits_print_dec | exact Hn].
Qed.

Definition canon_dec (d : text) (n : N) : Prop := d = print_dec n.

(** the constructor of [Decimal.uint] that [uint_digits] prints as [c] *)
Definition digit_cons (c : N) (u : Decimal.uint) : Decimal.uint :=
  if (c =? 48)%N then Decimal.D0 u else if (c =? 49)%N then Decimal.D1 u
  else if (c =? 50)%N then Decimal.D2 u else if (c =? 51)%N then Decimal.D3 u
  else if (c =? 52)%N then Decimal.D4 u else if (c =? 53)%N then Decimal.D5 u
  else if (c =? 54)%N then Decimal.D6 u else if (c =? 55)%N then Decimal.D7 u
  else if (c =? 56)%N then Decimal.D8 u else Decimal.D9 u.

Lemma digit_cons_spec c u :
  is_digit c = true ->
  uint_digits (digit_cons c u) = c :: uint_digits u /\
  (c <> 48%N -> Decimal.unorm (digit_cons c u) = digit_cons c u).
Proof.
  intros Hc. apply is_digit_bounds in Hc. unfold digit_cons.
  (* the nine tests in turn *)
  do 9 (match goal with |- context [(c =? ?k)%N] => destruct (N.eqb_spec c k) as [->|?] end;
        [split; [reflexivity | intros; reflexivity || congruence]|]).
  split; [|reflexivity]. cbn [uint_digits]. f_equal. lia.
Qed.

Definition text_uint (l : text) : Decimal.uint := fold_right digit_cons Decimal.Nil l.

Lemma uint_digits_text_uint l :
  forallb is_digit l = true -> uint_digits (text_uint l) = l.
Proof.
  induction l as [|c t IH]; [reflexivity|].
  cbn [forallb text_uint fold_right]. intros H. apply andb_true_iff in H as [Hc Ht].
  rewrite (proj1 (digit_cons_spec _ _ Hc)). f_equal. exact (IH Ht).
Qed.

Lemma unorm_text_uint l :
  forallb is_digit l = true -> l = [48%N] \/ hd 0%N l <> 48%N -> l <> [] ->
  Decimal.unorm (text_uint l) = text_uint l.
Proof.
  intros Hd [->|Hhd] Hne; [reflexivity|].
  destruct l as [|c t]; [congruence|].
  cbn [forallb] in Hd. apply andb_true_iff in Hd as [Hc _].
  apply (digit_cons_spec _ _ Hc), Hhd.
Qed.

Lemma canon_dec_iff d n :
  canon_dec d n <->
  d <> [] /\ forallb is_digit d = true /\
  (d = [48%N] \/ hd 0%N d <> 48%N) /\ parse_digits 0 d = Some n.
Proof.
  unfold canon_dec. split.
  - intros ->.
    auto using print_dec_nonempty, print_dec_all_digits, print_dec_no_leading_zero,
      parse_digits_print_dec.
  - intros (Hne & Hd & Hz & Hp).
    (* [d] prints [text_uint d], which is in normal form and is read as [n] *)
    rewrite <- (uint_digits_text_uint d Hd) in Hp |- * at 1.
    rewrite parse_digits_spec, uint_digits_all_digits, horner_uint in Hp. injection Hp as <-.
    unfold print_dec. rewrite DecimalN.Unsigned.to_of, (unorm_text_uint d Hd Hz Hne).
    reflexivity.
Qed.

Lemma canon_dec_inj d n m : canon_dec d n -> canon_dec d m -> n = m.
Proof.
  unfold canon_dec. intros -> E.
  pose proof (parse_digits_print_dec n) as H. rewrite E, parse_digits_print_dec in H.
  congruence.
Qed.

Definition no_space (t : text) : Prop := Forall (fun c => c <> ch_space) t.

Definition no_spaceb (t : text) : bool :=
  forallb (fun c => negb (c =? ch_space)%N) t.

Lemma no_spaceb_spec t : no_spaceb t = true <-> no_space t.
Proof.
  apply forallb_Forall_iff. intros c. rewrite negb_true_iff, N.eqb_neq. reflexivity.
Qed.

(** [label_print] of a padded body drops the padding and nothing else *)
Lemma filter_padded t k :
  no_space t -> filter (fun c => negb (c =? ch_space)%N) (t ++ repeat ch_space k) = t.
Proof.
  intros H. rewrite filter_app, (filter_none _ (repeat ch_space k)), List.app_nil_r.
  - apply filter_id, forallb_forall, no_spaceb_spec, H.
  - intros c Hc. apply repeat_spec in Hc as ->. reflexivity.
Qed.

Lemma print_dec_no_space n : no_space (print_dec n).
Proof.
  apply Forall_forall. intros c Hin ->.
  pose proof (print_dec_all_digits n) as H. rewrite forallb_forall in H.
  discriminate (H _ Hin).
Qed.

(** the label texts and the label values that property C17 speaks of *)
Definition valid_text (t : text) : Prop :=
  no_space t /\
  ((exists n, (n <= usize_max)%N /\ t = ch_alpha :: print_dec n) \/
   (exists c r, t = c :: r /\ c <> ch_alpha /\ length t <= 8)).

Definition canonical (l : label) : Prop :=
  match l with
  | Greek c => c <> ch_alpha
  | Alpha n => (n <= usize_max)%N
  | LStr cs =>
      exists body, 2 <= length body <= 8 /\ no_space body /\
                   hd 0%N body <> ch_alpha /\
                   cs = body ++ repeat ch_space (8 - length body)
  end.

Lemma valid_text_alpha n : (n <= usize_max)%N -> valid_text (ch_alpha :: print_dec n).
Proof.
  intros Hn. split.
  - constructor; [discriminate | apply print_dec_no_space].
  - left. eauto.
Qed.

Lemma valid_text_alpha_canon d n :
  canon_dec d n -> (n <= usize_max)%N -> valid_text (ch_alpha :: d).
Proof. intros ->. apply valid_text_alpha. Qed.

(** boolean test for the second alternative, for the examples *)
Definition plain_textb (t : text) : bool :=
  no_spaceb t && negb (hd ch_alpha t =? ch_alpha)%N && (length t <=? 8).

Lemma plain_textb_valid t : plain_textb t = true -> valid_text t.
Proof.
  unfold plain_textb.
  rewrite !andb_true_iff, negb_true_iff, N.eqb_neq, Nat.leb_le, no_spaceb_spec.
  intros [[Hs Hh] Hl]. split; [exact Hs|]. right.
  destruct t as [|c r]; [contradiction Hh; reflexivity|]. exists c, r. auto.
Qed.

Lemma label_from_str_alpha tail :
  label_from_str (ch_alpha :: tail) =
  match parse_usize tail with Some n => Some (Alpha n) | None => None end.
Proof. reflexivity. Qed.

Lemma label_from_str_single c : c <> ch_alpha -> label_from_str [c] = Some (Greek c).
Proof.
  intros H. cbn [label_from_str]. apply N.eqb_neq in H. rewrite H. reflexivity.
Qed.

Lemma label_from_str_multi c c' r :
  c <> ch_alpha -> length (c :: c' :: r) <= 8 ->
  label_from_str (c :: c' :: r) =
  Some (LStr ((c :: c' :: r) ++ repeat ch_space (8 - length (c :: c' :: r)))).
Proof.
  intros H Hlen. unfold label_from_str. apply N.eqb_neq in H. rewrite H.
  apply Nat.leb_le in Hlen. rewrite Hlen. reflexivity.
Qed.

Lemma valid_text_parse t :
  valid_text t ->
  exists l, label_from_str t = Some l /\ canonical l /\ label_print l = t.
Proof.
  intros [Hs [(n & Hn & ->)|(c & r & -> & Hc & Hlen)]].
  - exists (Alpha n). rewrite label_from_str_alpha, (parse_usize_print_dec n Hn). auto.
  - destruct r as [|c' r].
    + exists (Greek c). rewrite (label_from_str_single c Hc). auto.
    + rewrite (label_from_str_multi c c' r Hc Hlen). eexists. split; [reflexivity|]. split.
      * exists (c :: c' :: r). cbn [length hd] in *. repeat split; auto; lia.
      * apply filter_padded, Hs.
Qed.

Lemma label_roundtrip l :
  canonical l -> label_from_str (label_print l) = Some l.
Proof.
  destruct l as [c|n|cs]; cbn [canonical label_print].
  - apply label_from_str_single.
  - intros Hn. rewrite label_from_str_alpha, (parse_usize_print_dec n Hn). reflexivity.
  - intros (body & Hlen & Hs & Hhd & ->).
    rewrite (filter_padded _ _ Hs).
    destruct body as [|c [|c' r]]; cbn [length] in Hlen; try lia.
    cbn [hd] in Hhd. apply label_from_str_multi; [exact Hhd | cbn [length]; lia].
Qed.

Lemma accept_index tail l :
  label_from_str (ch_alpha :: tail) = Some l ->
  exists n, l = Alpha n /\ parse_usize tail = Some n /\ (n <= usize_max)%N.
Proof.
  rewrite label_from_str_alpha. destruct (parse_usize tail) as [n|] eqn:P; [|discriminate].
  intros [= <-]. exists n. repeat split.
  apply parse_usize_some_iff in P. tauto.
Qed.
