(** * C03  Edges and data read back exactly what was last written

    "For every present vertex v, kid(v,a) is the target of the most recent
    bind(v,.,a) since v was created (None if there was none) and kids(v) yields
    exactly one entry per label so bound.  data(v) is None until the first put
    and afterwards returns exactly the bytes of the most recent put(v,.), on
    the first read and on every later read.  Calls on other vertices,
    including the collection of other groups, never change these answers."

    Shape: refinement to last-write maps.  (1) [C03_observations_refine]: for
    every call sequence within the limits the model of the code returns, call
    by call, the answers of the reference model (this includes every kid /
    kids / data answer, and it is proved for every label variant and every
    data value, the data being compared as values with their representation).
    (2) The reference model keeps per vertex an insertion-ordered edge list
    and a last datum; the theorems below are its laws: what bind / put write,
    and that nothing else (reads, collections, next_id, add of other ids)
    changes any edge or datum.  (3) [C03_one_entry_per_label]: in every state
    satisfying the invariant the labels of a vertex are pairwise distinct. *)

From Sodg Require Import History.

Theorem C03_observations_refine :
  forall n cap os,
  within_limits n cap sinit os ->
  exists g', run n (op_empty cap) os = Ok (g', snd (srun sinit os)).
Proof. intros n cap os HW. destruct (sim_run_empty n cap os HW) as (g' & A & _). eauto. Qed.

Check C03_observations_refine :
  forall n cap os,
  within_limits n cap sinit os ->
  exists g', run n (op_empty cap) os = Ok (g', snd (srun sinit os)).
Print Assumptions C03_observations_refine.

Theorem C03_kid_answer :
  forall s v a, snd (sstep s (OKid v a)) = RKid (mm_get (s_edges s v) a).
Proof. reflexivity. Qed.

Check C03_kid_answer :
  forall s v a, snd (sstep s (OKid v a)) = RKid (mm_get (s_edges s v) a).
Print Assumptions C03_kid_answer.

Theorem C03_kids_answer :
  forall s v, snd (sstep s (OKids v)) = RKids (s_edges s v).
Proof. reflexivity. Qed.

Check C03_kids_answer :
  forall s v, snd (sstep s (OKids v)) = RKids (s_edges s v).
Print Assumptions C03_kids_answer.

Theorem C03_data_answer :
  forall s v, snd (sstep s (OData v)) = RData (s_data s v).
Proof. exact spec_data_answer. Qed.

Check C03_data_answer :
  forall s v, snd (sstep s (OData v)) = RData (s_data s v).
Print Assumptions C03_data_answer.

Theorem C03_bind_writes :
  forall s v1 v2 a,
  let s' := fst (sstep s (OBind v1 v2 a)) in
  (forall b, mm_get (s_edges s' v1) b = if label_eqb a b then Some v2 else mm_get (s_edges s v1) b)
  /\ map fst (s_edges s' v1) = (if in_dec label_eq_dec a (map fst (s_edges s v1))
                                then map fst (s_edges s v1) else map fst (s_edges s v1) ++ [a])
  /\ (forall w, w <> v1 -> s_edges s' w = s_edges s w)
  /\ (forall w, s_data s' w = s_data s w).
Proof. exact spec_bind_edges. Qed.

Check C03_bind_writes :
  forall s v1 v2 a,
  let s' := fst (sstep s (OBind v1 v2 a)) in
  (forall b, mm_get (s_edges s' v1) b = if label_eqb a b then Some v2 else mm_get (s_edges s v1) b)
  /\ map fst (s_edges s' v1) = (if in_dec label_eq_dec a (map fst (s_edges s v1))
                                then map fst (s_edges s v1) else map fst (s_edges s v1) ++ [a])
  /\ (forall w, w <> v1 -> s_edges s' w = s_edges s w)
  /\ (forall w, s_data s' w = s_data s w).
Print Assumptions C03_bind_writes.

Theorem C03_put_writes :
  forall s v d,
  let s' := fst (sstep s (OPut v d)) in
  s_data s' v = Some d /\ (forall w, w <> v -> s_data s' w = s_data s w)
  /\ (forall w, s_edges s' w = s_edges s w).
Proof. exact spec_put_data. Qed.

Check C03_put_writes :
  forall s v d,
  let s' := fst (sstep s (OPut v d)) in
  s_data s' v = Some d /\ (forall w, w <> v -> s_data s' w = s_data s w)
  /\ (forall w, s_edges s' w = s_edges s w).
Print Assumptions C03_put_writes.

Theorem C03_reads_change_nothing :
  forall s o,
  match o with OData _ | ONext | OKid _ _ | OKids _ | OKeys => True | _ => False end ->
  forall w, s_edges (fst (sstep s o)) w = s_edges s w /\ s_data (fst (sstep s o)) w = s_data s w.
Proof. exact spec_frame_readers. Qed.

Check C03_reads_change_nothing :
  forall s o,
  match o with OData _ | ONext | OKid _ _ | OKids _ | OKeys => True | _ => False end ->
  forall w, s_edges (fst (sstep s o)) w = s_edges s w /\ s_data (fst (sstep s o)) w = s_data s w.
Print Assumptions C03_reads_change_nothing.

Theorem C03_add_frame :
  forall s v w,
  w <> v -> s_edges (fst (sstep s (OAdd v))) w = s_edges s w /\ s_data (fst (sstep s (OAdd v))) w = s_data s w.
Proof. exact spec_frame_add. Qed.

Check C03_add_frame :
  forall s v w,
  w <> v -> s_edges (fst (sstep s (OAdd v))) w = s_edges s w /\ s_data (fst (sstep s (OAdd v))) w = s_data s w.
Print Assumptions C03_add_frame.

Theorem C03_add_present_changes_nothing :
  forall s v,
  s_present s v = true -> sstep s (OAdd v) = (s, RUnit).
Proof. exact spec_add_present. Qed.

Check C03_add_present_changes_nothing :
  forall s v,
  s_present s v = true -> sstep s (OAdd v) = (s, RUnit).
Print Assumptions C03_add_present_changes_nothing.

Theorem C03_add_absent_blank :
  forall s v,
  s_present s v = false ->
  let s' := fst (sstep s (OAdd v)) in
  s_present s' v = true /\ s_grp s' v = None /\ s_unread s' v = false
  /\ s_edges s' v = [] /\ s_data s' v = None
  /\ (forall w, w <> v -> s_present s' w = s_present s w /\ s_grp s' w = s_grp s w
                          /\ s_unread s' w = s_unread s w /\ s_edges s' w = s_edges s w
                          /\ s_data s' w = s_data s w)
  /\ s_alloc s' = s_alloc s.
Proof. exact spec_add_absent. Qed.

Check C03_add_absent_blank :
  forall s v,
  s_present s v = false ->
  let s' := fst (sstep s (OAdd v)) in
  s_present s' v = true /\ s_grp s' v = None /\ s_unread s' v = false
  /\ s_edges s' v = [] /\ s_data s' v = None
  /\ (forall w, w <> v -> s_present s' w = s_present s w /\ s_grp s' w = s_grp s w
                          /\ s_unread s' w = s_unread s w /\ s_edges s' w = s_edges s w
                          /\ s_data s' w = s_data s w)
  /\ s_alloc s' = s_alloc s.
Print Assumptions C03_add_absent_blank.

Theorem C03_one_entry_per_label :
  forall n g v,
  Inv n g -> NoDup (map fst (edg g v)) /\ length (edg g v) <= n.
Proof. intros n g v HI. apply (i_edges HI). Qed.

Check C03_one_entry_per_label :
  forall n g v,
  Inv n g -> NoDup (map fst (edg g v)) /\ length (edg g v) <= n.
Print Assumptions C03_one_entry_per_label.


(** non-vacuity: a label re-bound (it keeps its position), a datum
    overwritten, first and later reads, kids(0) asked again after the calls
    on vertex 3 *)
Definition ex_os : list op :=
  [OAdd 0; OAdd 1; OAdd 2; OBind 0 1 (Alpha 7); OBind 0 2 (LStr [102; 111; 111; 32; 32; 32; 32; 32]%N);
   OBind 0 2 (Alpha 7); OKid 0 (Alpha 7); OKids 0;
   OAdd 3; OPut 3 (HVector [1%N]); OPut 3 (HBytes [2; 3; 0; 0; 0; 0; 0; 0]%N 2); OData 3; OData 3; OKids 0].

Example C03_example : within_limits 2 4 sinit ex_os
  /\ exists g', run 2 (op_empty 4) ex_os = Ok (g', snd (srun sinit ex_os))
     /\ snd (srun sinit ex_os) =
        [RUnit; RUnit; RUnit; RUnit; RUnit; RUnit; RKid (Some 2);
         RKids [(Alpha 7, 2); (LStr [102; 111; 111; 32; 32; 32; 32; 32]%N, 2)];
         RUnit; RUnit; RUnit; RData (Some (HBytes [2; 3; 0; 0; 0; 0; 0; 0]%N 2));
         RData (Some (HBytes [2; 3; 0; 0; 0; 0; 0; 0]%N 2));
         RKids [(Alpha 7, 2); (LStr [102; 111; 111; 32; 32; 32; 32; 32]%N, 2)]].
Proof.
  split.
  - apply limitsb_ok. vm_compute. reflexivity.
  - eexists. split; vm_compute; reflexivity.
Qed.


