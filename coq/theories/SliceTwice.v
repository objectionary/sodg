(** * SliceTwice: slicing a slice changes nothing.  The sliced graph is closed
    under its own reachability, stays within the bound and has no self loop, so
    [slice_correct] applies to it again, whatever the enumeration order of
    either call; reachability in the slice is reachability in the source
    ([reach_slice_iff]). *)

From Sodg Require Import SliceFacts2.

Section Twice.
  Variables (g ng : sodg) (v : nat).
  Hypothesis Hedg :
    forall w a t, In (a, t) (edg ng w) <-> reach ptrue g v w /\ In (a, t) (edg g w).

  Lemma reach_slice_iff w : reach ptrue ng v w <-> reach ptrue g v w.
  Proof.
    split; intros H.
    - induction H as [|u a w Hu IH Hin Hp]; [apply reach_refl|].
      apply Hedg in Hin. destruct Hin as [_ Hin].
      apply (reach_step ptrue g v u a w); [exact IH|exact Hin|reflexivity].
    - induction H as [|u a w Hu IH Hin Hp]; [apply reach_refl|].
      apply (reach_step ptrue ng v u a w); [exact IH| |reflexivity].
      apply Hedg. split; assumption.
  Qed.
End Twice.

Theorem slice_twice n order order' g v :
  Inv n g -> (forall l, Permutation (order l) l) -> (forall l, Permutation (order' l) l) ->
  closed g v ->
  (forall rs, NoDup rs -> (forall u, In u rs -> reach ptrue g v u) -> length rs <= 14) ->
  (forall u a, reach ptrue g v u -> ~ In (a, u) (edg g u)) ->
  exists ng ng',
    op_slice n order g v = Ok ng /\ op_slice n order' ng v = Ok ng'
    /\ (forall w, tag ng' w <> 0 <-> tag ng w <> 0)
    /\ (forall w a t, In (a, t) (edg ng' w) <-> In (a, t) (edg ng w))
    /\ (forall w, tag ng w <> 0 -> edg ng' w = edg ng w)
    /\ (forall w, reach ptrue ng' v w <-> reach ptrue g v w)
    /\ (forall w, prs ng' w = PEmpty).
Proof.
  intros HI Ho Ho' Hc Hb Hs.
  destruct (slice_correct n order g v HI Ho Hc Hb Hs)
    as (ng & Hok & HI1 & Hcap & Htag & Hedg & Hsame & Hprs).
  pose proof (reach_slice_iff g ng v Hedg) as Hr.
  destruct (slice_correct n order' ng v HI1 Ho')
    as (ng' & Hok' & HI2 & Hcap' & Htag' & Hedg' & Hsame' & Hprs').
  - destruct Hc as [Hv Hc]. split; [rewrite Hcap; exact Hv|].
    intros u a w Hu Hin. rewrite Hcap. apply Hedg in Hin as [Hgu Hin]. exact (Hc u a w Hgu Hin).
  - intros rs Hnd Hall. apply Hb; [exact Hnd|]. intros u Hu. apply Hr, Hall, Hu.
  - intros u a Hu Hin. apply Hedg in Hin as [Hgu Hin]. exact (Hs u a Hgu Hin).
  - exists ng, ng'. split; [exact Hok|]. split; [exact Hok'|].
    split; [intros w; rewrite Htag', Htag; apply Hr|].
    split; [|split; [|split; [|exact Hprs']]].
    + intros w a t. rewrite Hedg'. split; [tauto|].
      intros H. split; [|exact H]. apply Hr. apply Hedg in H. tauto.
    + intros w Hw. apply Hsame', Hr, Htag, Hw.
    + intros w. rewrite (reach_slice_iff ng ng' v Hedg' w). apply Hr.
Qed.

Print Assumptions slice_twice.
