(** * P_C17: property C17 of the sodg verification.

    "For every label text of 1 to 8 non-space characters (the alpha sign
    followed by a canonical decimal index, or any text not starting with
    the alpha sign), parsing then printing returns the text and distinct
    texts give distinct labels.  For every label value in canonical form
    (a single character, an index, or 2 to 8 non-space characters),
    printing then parsing returns an equal label, so an edge bound under a
    parsed name is found under the same name built directly.  Texts longer
    than 8 characters or with a malformed index are rejected with Err."

    Model: [label_from_str] / [label_print] of Label.v ([FromStr] / [Display]
    of [sodg::Label]), [parse_usize] / [print_dec] of Text.v, [mm_get] /
    [mm_insert] of Sodg.v.  Texts are lists of Unicode code points.

    Predicates (defined in LabelFacts.v):
    - [no_space t]    every character of [t] differs from ' ' (32);
    - [canon_dec d n] [d = print_dec n]; by [canon_dec_iff] this is: [d] is a
                      non-empty all-digit text (so no sign) without leading
                      zero (unless it is "0") whose value is [n];
    - [valid_text t]  [no_space t] and either [t = 'α' :: print_dec n] with
                      [n <= 2^64-1], or [t = c :: r] with [c <> 'α'] and
                      [length t <= 8].  (Alpha texts may thus be up to 21
                      characters long: more general than the property.)
    - [canonical l]   [Greek c]: [c <> 'α'];  [Alpha n]: [n <= 2^64-1];
                      [LStr cs]: [cs] is a body of 2..8 non-space characters
                      not starting with 'α', padded with spaces to 8.

    The lemmas are in LabelFacts.v; the theorems below restate them or
    follow from them (and from one another) in a few lines. *)

From Sodg Require Import Sodg LabelFacts.
From Sodg Require Facts.

(** ** text -> label -> text *)

Theorem C17_text_roundtrip :
  forall t : text,
    valid_text t ->
    exists l, label_from_str t = Some l /\ label_print l = t.
Proof. intros t H. destruct (valid_text_parse t H) as (l & P & _ & R). eauto. Qed.
Check C17_text_roundtrip :
  forall t : text,
    valid_text t ->
    exists l, label_from_str t = Some l /\ label_print l = t.
Print Assumptions C17_text_roundtrip.

(** ** distinct texts give distinct labels *)

Theorem C17_text_injective :
  forall t1 t2 : text,
    valid_text t1 -> valid_text t2 ->
    label_from_str t1 = label_from_str t2 -> t1 = t2.
Proof.
  (* [label_print] is a left inverse of [label_from_str] on valid texts *)
  intros t1 t2 H1 H2 E.
  destruct (C17_text_roundtrip t1 H1) as (l1 & P1 & <-).
  destruct (C17_text_roundtrip t2 H2) as (l2 & P2 & <-).
  congruence.
Qed.
Check C17_text_injective :
  forall t1 t2 : text,
    valid_text t1 -> valid_text t2 ->
    label_from_str t1 = label_from_str t2 -> t1 = t2.
Print Assumptions C17_text_injective.

Theorem C17_text_distinct :
  forall (t1 t2 : text) (l1 l2 : label),
    valid_text t1 -> valid_text t2 -> t1 <> t2 ->
    label_from_str t1 = Some l1 -> label_from_str t2 = Some l2 -> l1 <> l2.
Proof.
  intros t1 t2 l1 l2 H1 H2 Hne P1 P2 E. apply Hne, C17_text_injective; congruence.
Qed.
Check C17_text_distinct :
  forall (t1 t2 : text) (l1 l2 : label),
    valid_text t1 -> valid_text t2 -> t1 <> t2 ->
    label_from_str t1 = Some l1 -> label_from_str t2 = Some l2 -> l1 <> l2.
Print Assumptions C17_text_distinct.

(** ** label -> text -> label *)

Theorem C17_label_roundtrip :
  forall l : label,
    canonical l -> label_from_str (label_print l) = Some l.
Proof. exact label_roundtrip. Qed.
Check C17_label_roundtrip :
  forall l : label,
    canonical l -> label_from_str (label_print l) = Some l.
Print Assumptions C17_label_roundtrip.

(** the two canonical forms correspond *)
Theorem C17_valid_text_canonical :
  forall (t : text) (l : label),
    valid_text t -> label_from_str t = Some l -> canonical l.
Proof.
  intros t l H P. destruct (valid_text_parse t H) as (l' & P' & C & _). congruence.
Qed.
Check C17_valid_text_canonical :
  forall (t : text) (l : label),
    valid_text t -> label_from_str t = Some l -> canonical l.
Print Assumptions C17_valid_text_canonical.

(** ** more than 8 characters *)

Theorem C17_reject_long :
  forall (c : N) (r : text),
    c <> ch_alpha -> 8 < length (c :: r) -> label_from_str (c :: r) = None.
Proof.
  intros c r Hc Hlen. unfold label_from_str. apply N.eqb_neq in Hc. rewrite Hc.
  destruct r as [|c' r]; [cbn [length] in Hlen; lia|].
  apply Nat.leb_gt in Hlen. rewrite Hlen. reflexivity.
Qed.
Check C17_reject_long :
  forall (c : N) (r : text),
    c <> ch_alpha -> 8 < length (c :: r) -> label_from_str (c :: r) = None.
Print Assumptions C17_reject_long.

(** ** malformed index *)

Theorem C17_reject_index :
  forall tail : text,
    parse_usize tail = None -> label_from_str (ch_alpha :: tail) = None.
Proof. intros tail H. rewrite label_from_str_alpha, H. reflexivity. Qed.
Check C17_reject_index :
  forall tail : text,
    parse_usize tail = None -> label_from_str (ch_alpha :: tail) = None.
Print Assumptions C17_reject_index.

(** the decimal round trip everything rests on *)
Theorem C17_index_roundtrip :
  forall n : N, (n <= usize_max)%N -> parse_usize (print_dec n) = Some n.
Proof. exact parse_usize_print_dec. Qed.
Check C17_index_roundtrip :
  forall n : N, (n <= usize_max)%N -> parse_usize (print_dec n) = Some n.
Print Assumptions C17_index_roundtrip.

(** an index is rejected in exactly four ways, (a)-(d) *)
Theorem C17_malformed_exhaustive :
  forall tail : text,
    parse_usize tail = None <->
    tail = [] \/ tail = [ch_plus] \/
    (exists c, In c (strip_plus tail) /\ is_digit c = false) \/
    (exists n, parse_digits 0 (strip_plus tail) = Some n /\ (usize_max < n)%N).
Proof. exact parse_usize_none_iff. Qed.
Check C17_malformed_exhaustive :
  forall tail : text,
    parse_usize tail = None <->
    tail = [] \/ tail = [ch_plus] \/
    (exists c, In c (strip_plus tail) /\ is_digit c = false) \/
    (exists n, parse_digits 0 (strip_plus tail) = Some n /\ (usize_max < n)%N).
Print Assumptions C17_malformed_exhaustive.

(** what "malformed" means: (a) nothing after the alpha sign *)
Theorem C17_malformed_empty : parse_usize [] = None.
Proof. apply C17_malformed_exhaustive. auto. Qed.
Check C17_malformed_empty : parse_usize [] = None.
Print Assumptions C17_malformed_empty.

(** (b) a sign and nothing else *)
Theorem C17_malformed_plus_only : parse_usize [ch_plus] = None.
Proof. apply C17_malformed_exhaustive. auto. Qed.
Check C17_malformed_plus_only : parse_usize [ch_plus] = None.
Print Assumptions C17_malformed_plus_only.

(** (c) a character that is not an ASCII digit, after the optional sign
    ([strip_plus] removes one leading '+') *)
Theorem C17_malformed_nondigit :
  forall (tail : text) (c : N),
    In c (strip_plus tail) -> is_digit c = false -> parse_usize tail = None.
Proof. intros tail c Hin Hc. apply C17_malformed_exhaustive. do 2 right. left. eauto. Qed.
Check C17_malformed_nondigit :
  forall (tail : text) (c : N),
    In c (strip_plus tail) -> is_digit c = false -> parse_usize tail = None.
Print Assumptions C17_malformed_nondigit.

Theorem C17_malformed_nondigit_unsigned :
  forall (tail : text) (c : N),
    hd 0%N tail <> ch_plus -> In c tail -> is_digit c = false ->
    parse_usize tail = None.
Proof.
  intros tail c Hhd Hin Hc. apply C17_malformed_nondigit with c; [|exact Hc].
  destruct tail as [|x t]; [destruct Hin|]. cbn [hd] in Hhd. cbn [strip_plus].
  apply N.eqb_neq in Hhd. rewrite Hhd. exact Hin.
Qed.
Check C17_malformed_nondigit_unsigned :
  forall (tail : text) (c : N),
    hd 0%N tail <> ch_plus -> In c tail -> is_digit c = false ->
    parse_usize tail = None.
Print Assumptions C17_malformed_nondigit_unsigned.

Theorem C17_malformed_nondigit_signed :
  forall (body : text) (c : N),
    In c body -> is_digit c = false -> parse_usize (ch_plus :: body) = None.
Proof. intros body c Hin Hc. apply C17_malformed_nondigit with c; assumption. Qed.
Check C17_malformed_nondigit_signed :
  forall (body : text) (c : N),
    In c body -> is_digit c = false -> parse_usize (ch_plus :: body) = None.
Print Assumptions C17_malformed_nondigit_signed.

(** (d) all digits, but the value exceeds 2^64-1 *)
Theorem C17_malformed_overflow :
  forall (tail : text) (n : N),
    parse_digits 0 (strip_plus tail) = Some n -> (usize_max < n)%N ->
    parse_usize tail = None.
Proof. intros tail n Hp Hn. apply C17_malformed_exhaustive. do 3 right. eauto. Qed.
Check C17_malformed_overflow :
  forall (tail : text) (n : N),
    parse_digits 0 (strip_plus tail) = Some n -> (usize_max < n)%N ->
    parse_usize tail = None.
Print Assumptions C17_malformed_overflow.

Theorem C17_malformed_overflow_canonical :
  forall n : N, (usize_max < n)%N -> parse_usize (print_dec n) = None.
Proof.
  intros n Hn. apply C17_malformed_overflow with n; [|exact Hn].
  rewrite strip_plus_print_dec. apply parse_digits_print_dec.
Qed.
Check C17_malformed_overflow_canonical :
  forall n : N, (usize_max < n)%N -> parse_usize (print_dec n) = None.
Print Assumptions C17_malformed_overflow_canonical.

(** "canonical decimal" = no sign, no leading zero *)
Theorem C17_canon_dec_iff :
  forall (d : text) (n : N),
    canon_dec d n <->
    d <> [] /\ forallb is_digit d = true /\
    (d = [48%N] \/ hd 0%N d <> 48%N) /\ parse_digits 0 d = Some n.
Proof. exact canon_dec_iff. Qed.
Check C17_canon_dec_iff :
  forall (d : text) (n : N),
    canon_dec d n <->
    d <> [] /\ forallb is_digit d = true /\
    (d = [48%N] \/ hd 0%N d <> 48%N) /\ parse_digits 0 d = Some n.
Print Assumptions C17_canon_dec_iff.

(** ** an edge bound under the constructed label is found under the
    parsed name *)

Theorem C17_kid_lookup :
  forall l : label,
    canonical l ->
    forall (e : edges) (v : nat),
    exists l', label_from_str (label_print l) = Some l' /\
               mm_get ((l, v) :: e) l' = Some v.
Proof.
  intros l H e v. exists l. split; [apply C17_label_roundtrip, H|].
  cbn [mm_get]. rewrite label_eqb_refl. reflexivity.
Qed.
Check C17_kid_lookup :
  forall l : label,
    canonical l ->
    forall (e : edges) (v : nat),
    exists l', label_from_str (label_print l) = Some l' /\
               mm_get ((l, v) :: e) l' = Some v.
Print Assumptions C17_kid_lookup.

(** the same with the edge stored by [micromap::Map::insert] *)
Theorem C17_kid_lookup_insert :
  forall l : label,
    canonical l ->
    forall (cap : nat) (e e' : edges) (v : nat),
    mm_insert cap e l v = Ok e' ->
    exists l', label_from_str (label_print l) = Some l' /\ mm_get e' l' = Some v.
Proof.
  intros l H cap e e' v Hi. exists l. split; [apply C17_label_roundtrip, H|].
  rewrite (Facts.mm_get_insert _ _ _ _ _ l Hi), label_eqb_refl. reflexivity.
Qed.
Check C17_kid_lookup_insert :
  forall l : label,
    canonical l ->
    forall (cap : nat) (e e' : edges) (v : nat),
    mm_insert cap e l v = Ok e' ->
    exists l', label_from_str (label_print l) = Some l' /\ mm_get e' l' = Some v.
Print Assumptions C17_kid_lookup_insert.

(** ** Examples

    Code points: 'α' 945, 'ρ' 961 (2 bytes in UTF-8), '𝜑'-like 120593
    (4 bytes), '€' 8364 (3 bytes), 'a' 97, 'b' 98, '0'..'9' 48..57,
    '+' 43, '-' 45, ' ' 32. *)

(** *** the hypotheses are satisfiable *)

Example ex_no_space : no_space [961; 120593; 97]%N.
Proof. apply no_spaceb_spec. vm_compute. reflexivity. Qed.

Example ex_no_space_neg : ~ no_space [97; 32; 98]%N.
Proof. intros H. apply no_spaceb_spec in H. vm_compute in H. discriminate H. Qed.

Example ex_canon_dec : canon_dec [49; 50]%N 12.
Proof. vm_compute. reflexivity. Qed.

Example ex_canon_dec_max :
  canon_dec [49;56;52;52;54;55;52;52;48;55;51;55;48;57;53;53;49;54;49;53]%N usize_max.
Proof. vm_compute. reflexivity. Qed.

Example ex_valid_single : valid_text [961%N].                        (* "ρ" *)
Proof. apply plain_textb_valid. vm_compute. reflexivity. Qed.

Example ex_valid_single_4byte : valid_text [120593%N].
Proof. apply plain_textb_valid. vm_compute. reflexivity. Qed.

Example ex_valid_multi : valid_text [961; 120593; 8364; 97]%N.
Proof. apply plain_textb_valid. vm_compute. reflexivity. Qed.

Example ex_valid_eight :                     (* 8 characters, 24 bytes *)
  valid_text [961; 120593; 8364; 97; 961; 120593; 8364; 98]%N.
Proof. apply plain_textb_valid. vm_compute. reflexivity. Qed.

Example ex_valid_alpha : valid_text [945; 49; 50]%N.                 (* "α12" *)
Proof. apply (valid_text_alpha 12). vm_compute. discriminate. Qed.

Example ex_valid_alpha_zero : valid_text [945; 48]%N.                (* "α0" *)
Proof. apply (valid_text_alpha 0). vm_compute. discriminate. Qed.

Example ex_valid_alpha_max : valid_text (ch_alpha :: print_dec usize_max).
Proof. apply valid_text_alpha. apply N.le_refl. Qed.

Example ex_canonical_greek : canonical (Greek 961).
Proof. vm_compute. discriminate. Qed.

Example ex_canonical_greek_4byte : canonical (Greek 120593).
Proof. vm_compute. discriminate. Qed.

Example ex_canonical_alpha : canonical (Alpha 12).
Proof. vm_compute. discriminate. Qed.

Example ex_canonical_str :
  canonical (LStr [961; 120593; 32; 32; 32; 32; 32; 32]%N).
Proof.
  exists [961; 120593]%N.
  split; [split; apply Nat.leb_le; reflexivity|]. split; [apply no_spaceb_spec; reflexivity|].
  split; [discriminate | reflexivity].
Qed.

Example ex_canonical_str_full :
  canonical (LStr [961; 120593; 8364; 97; 961; 120593; 8364; 98]%N).
Proof.
  exists [961; 120593; 8364; 97; 961; 120593; 8364; 98]%N.
  split; [split; apply Nat.leb_le; reflexivity|]. split; [apply no_spaceb_spec; reflexivity|].
  split; [discriminate | reflexivity].
Qed.

(** *** the functions on multi-byte characters *)

Example ex_parse_rho : label_from_str [961%N] = Some (Greek 961).
Proof. vm_compute. reflexivity. Qed.

Example ex_parse_4byte : label_from_str [120593%N] = Some (Greek 120593).
Proof. vm_compute. reflexivity. Qed.

Example ex_parse_two :
  label_from_str [961; 120593]%N = Some (LStr [961; 120593; 32; 32; 32; 32; 32; 32]%N).
Proof. vm_compute. reflexivity. Qed.

Example ex_print_two :
  label_print (LStr [961; 120593; 32; 32; 32; 32; 32; 32]%N) = [961; 120593]%N.
Proof. vm_compute. reflexivity. Qed.

Example ex_parse_eight :
  label_from_str [961; 120593; 8364; 97; 961; 120593; 8364; 98]%N
  = Some (LStr [961; 120593; 8364; 97; 961; 120593; 8364; 98]%N).
Proof. vm_compute. reflexivity. Qed.

Example ex_parse_alpha : label_from_str [945; 49; 50]%N = Some (Alpha 12).
Proof. vm_compute. reflexivity. Qed.

Example ex_print_alpha : label_print (Alpha 12) = [945; 49; 50]%N.
Proof. vm_compute. reflexivity. Qed.

Example ex_parse_alpha_max :
  label_from_str (ch_alpha :: print_dec usize_max) = Some (Alpha usize_max).
Proof. vm_compute. reflexivity. Qed.

Example ex_alpha_inside :                  (* 'α' not in front: a plain name *)
  label_from_str [961; 945]%N = Some (LStr [961; 945; 32; 32; 32; 32; 32; 32]%N).
Proof. vm_compute. reflexivity. Qed.

(** *** rejections *)

Example ex_reject_nine :
  label_from_str [961; 120593; 8364; 97; 961; 120593; 8364; 98; 97]%N = None.
Proof. vm_compute. reflexivity. Qed.

Example ex_reject_alpha_alone : label_from_str [945%N] = None.            (* "α" *)
Proof. vm_compute. reflexivity. Qed.

Example ex_reject_alpha_plus : label_from_str [945; 43]%N = None.         (* "α+" *)
Proof. vm_compute. reflexivity. Qed.

Example ex_reject_alpha_minus : label_from_str [945; 45; 49]%N = None.    (* "α-1" *)
Proof. vm_compute. reflexivity. Qed.

Example ex_reject_alpha_letter : label_from_str [945; 49; 961]%N = None.  (* "α1ρ" *)
Proof. vm_compute. reflexivity. Qed.

Example ex_reject_alpha_inner_plus : label_from_str [945; 49; 43; 50]%N = None.  (* "α1+2" *)
Proof. vm_compute. reflexivity. Qed.

Example ex_reject_alpha_overflow :                                       (* "α18446744073709551616" *)
  label_from_str (ch_alpha :: print_dec (usize_max + 1)) = None.
Proof. vm_compute. reflexivity. Qed.

(** *** why the hypotheses are needed: accepted, but not round-tripping *)

Example ex_leading_zero :                                   (* "α01" -> Alpha 1 -> "α1" *)
  label_from_str [945; 48; 49]%N = Some (Alpha 1) /\
  label_print (Alpha 1) = [945; 49]%N.
Proof. vm_compute. split; reflexivity. Qed.

Example ex_explicit_sign :                                  (* "α+5" -> Alpha 5 -> "α5" *)
  label_from_str [945; 43; 53]%N = Some (Alpha 5) /\
  label_print (Alpha 5) = [945; 53]%N.
Proof. vm_compute. split; reflexivity. Qed.

Example ex_inner_space :                                    (* "a b" -> ... -> "ab" *)
  label_from_str [97; 32; 98]%N = Some (LStr [97; 32; 98; 32; 32; 32; 32; 32]%N) /\
  label_print (LStr [97; 32; 98; 32; 32; 32; 32; 32]%N) = [97; 98]%N.
Proof. vm_compute. split; reflexivity. Qed.

Example ex_greek_alpha_not_canonical :                      (* Greek('α') -> "α" -> Err *)
  label_from_str (label_print (Greek 945)) = None.
Proof. vm_compute. reflexivity. Qed.

Example ex_short_str_not_canonical :                        (* Str("a") -> "a" -> Greek('a') *)
  label_from_str (label_print (LStr [97; 32; 32; 32; 32; 32; 32; 32]%N)) = Some (Greek 97).
Proof. vm_compute. reflexivity. Qed.

Example ex_str_alpha_not_canonical :                        (* Str("α7") -> "α7" -> Alpha(7) *)
  label_from_str (label_print (LStr [945; 55; 32; 32; 32; 32; 32; 32]%N)) = Some (Alpha 7).
Proof. vm_compute. reflexivity. Qed.

(** *** an edge bound under [Str("ρ𝜑")] is found under the parsed "ρ𝜑" *)

Example ex_kid_lookup :
  match label_from_str [961; 120593]%N with
  | Some l' =>
      mm_get [(LStr [961; 120593; 32; 32; 32; 32; 32; 32]%N, 7); (Alpha 0, 3)] l'
  | None => None
  end = Some 7.
Proof. vm_compute. reflexivity. Qed.

Example ex_kid_lookup_insert :
  match mm_insert 4 [(Alpha 0, 3)] (Greek 120593) 9, label_from_str [120593%N] with
  | Ok e', Some l' => mm_get e' l'
  | _, _ => None
  end = Some 9.
Proof. vm_compute. reflexivity. Qed.
