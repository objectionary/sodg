(** * ScriptFacts: [Script::deploy_to] (Script.v) against a direct interpreter
    of abstract scripts, behind property C14 (restated in P_C14.v).

    [deploy_one] is a parser without effects ([cmd_syn]) followed by the
    interpreter ([deploy_one_syn]), which gives every outcome of one step
    ([run_parsed_spec]); the pipeline of Script.v maps the text that [render]
    writes for a script, under any legal format, back to the script
    ([cmd_syn_core], [commands_lay_prog]); [deploy_rendered] puts the two together. *)

From Sodg Require Import Effects Script LabelFacts HexFacts.

Local Open Scope nat_scope.

(** ** Texts: [split_on], [trim], [fields], [strip_comments] *)

Definition lacks (x : N) (t : text) : bool := forallb (fun c => negb (c =? x)%N) t.

Definition all_ws (t : text) : bool := forallb is_ws t.

(** no white space on the left; [nwl (rev t)]: none on the right *)
Definition nwl (t : text) : bool :=
  match t with [] => true | c :: _ => negb (is_ws c) end.

Lemma lacks_app x a b : lacks x (a ++ b) = lacks x a && lacks x b.
Proof. apply forallb_app. Qed.

Lemma lacks_cons x c t : lacks x (c :: t) = negb (c =? x)%N && lacks x t.
Proof. reflexivity. Qed.

Lemma lacks_nil x : lacks x [] = true.
Proof. reflexivity. Qed.

Lemma lacks_rev x t : lacks x (rev t) = lacks x t.
Proof. apply forallb_rev. Qed.

Lemma lacks_cons_true x c t :
  lacks x (c :: t) = true -> (c =? x)%N = false /\ lacks x t = true.
Proof. rewrite lacks_cons, andb_true_iff, negb_true_iff. auto. Qed.

Lemma lacks_spec x t : lacks x t = true <-> ~ In x t.
Proof.
  unfold lacks. rewrite forallb_forall. split.
  - intros H Hin. specialize (H _ Hin). rewrite N.eqb_refl in H. discriminate.
  - intros H c Hc. destruct (N.eqb_spec c x) as [->|Hne]; [contradiction | reflexivity].
Qed.

Lemma existsb_lacks x t : existsb (N.eqb x) t = negb (lacks x t).
Proof.
  induction t as [|c t IH]; [reflexivity|].
  cbn [existsb]. rewrite lacks_cons, IH, N.eqb_sym. destruct (c =? x)%N; reflexivity.
Qed.

Lemma forallb_lacks (p : N -> bool) x t :
  p x = false -> forallb p t = true -> lacks x t = true.
Proof.
  intros Hx. apply forallb_impl. intros c Hc.
  destruct (N.eqb_spec c x) as [->|Hne]; [congruence | reflexivity].
Qed.

Lemma lacks_repeat x c k : (c =? x)%N = false -> lacks x (repeat c k) = true.
Proof. intros H. apply forallb_repeat. rewrite H. reflexivity. Qed.

Lemma split_on_lacks sep x : lacks sep x = true -> split_on sep x = [x].
Proof.
  induction x as [|c x IH]; intros H; [reflexivity|].
  apply lacks_cons_true in H as [Hc Hx]. cbn [split_on]. rewrite Hc, (IH Hx). reflexivity.
Qed.

Lemma split_on_app sep x rest :
  lacks sep x = true -> split_on sep (x ++ sep :: rest) = x :: split_on sep rest.
Proof.
  induction x as [|c x IH]; intros H.
  - cbn [app split_on]. rewrite N.eqb_refl. reflexivity.
  - apply lacks_cons_true in H as [Hc Hx]. cbn [app split_on]. rewrite Hc, (IH Hx). reflexivity.
Qed.

Lemma drop_ws_all l x : all_ws l = true -> drop_ws (l ++ x) = drop_ws x.
Proof.
  induction l as [|c l IH]; intros H; [reflexivity|].
  cbn [all_ws forallb] in H. apply andb_true_iff in H as [Hc Hl].
  cbn [app drop_ws]. rewrite Hc. apply IH, Hl.
Qed.

Lemma drop_ws_all_nil l : all_ws l = true -> drop_ws l = [].
Proof.
  intros H. rewrite <- (app_nil_r l). rewrite (drop_ws_all _ _ H). reflexivity.
Qed.

Lemma drop_ws_nwl x : nwl x = true -> drop_ws x = x.
Proof.
  destruct x as [|c x]; [reflexivity|]. cbn [nwl drop_ws]. intros H.
  apply negb_true_iff in H. rewrite H. reflexivity.
Qed.

Lemma all_ws_rev r : all_ws (rev r) = all_ws r.
Proof. apply forallb_rev. Qed.

Lemma all_ws_app a b : all_ws (a ++ b) = all_ws a && all_ws b.
Proof. apply forallb_app. Qed.

Lemma trim_all_ws x : all_ws x = true -> trim x = [].
Proof.
  intros H. unfold trim. rewrite (drop_ws_all_nil _ H). reflexivity.
Qed.

Lemma trim_app_ws x r : all_ws r = true -> trim (x ++ r) = trim x.
Proof.
  intros H. unfold trim. induction x as [|c x IH].
  - cbn [app]. rewrite (drop_ws_all_nil _ H). reflexivity.
  - cbn [app drop_ws]. destruct (is_ws c); [exact IH|].
    rewrite app_comm_cons, rev_app_distr, drop_ws_all; [reflexivity|].
    rewrite all_ws_rev. exact H.
Qed.

Lemma trim_pad l x r :
  all_ws l = true -> all_ws r = true -> trim (l ++ x ++ r) = trim x.
Proof.
  intros Hl Hr. rewrite <- (trim_app_ws x r Hr). unfold trim.
  rewrite (drop_ws_all _ _ Hl). reflexivity.
Qed.

Lemma trim_tight x : nwl x = true -> nwl (rev x) = true -> trim x = x.
Proof.
  intros H1 H2. unfold trim. rewrite (drop_ws_nwl _ H1), (drop_ws_nwl _ H2).
  apply rev_involutive.
Qed.

(** a filter that drops every white-space character of [x] anyway does not
    see whether [x] was trimmed *)
Lemma filter_drop_ws (q : N -> bool) x :
  forallb (fun c => negb (is_ws c) || negb (q c)) x = true ->
  filter q (drop_ws x) = filter q x.
Proof.
  induction x as [|c x IH]; intros H; [reflexivity|].
  cbn [forallb] in H. apply andb_true_iff in H as [Hc Hx].
  cbn [drop_ws]. destruct (is_ws c) eqn:Ew; [|reflexivity].
  cbn [negb orb] in Hc. apply negb_true_iff in Hc.
  cbn [filter]. rewrite Hc. apply IH, Hx.
Qed.

Lemma forallb_drop_ws (p : N -> bool) x :
  forallb p x = true -> forallb p (drop_ws x) = true.
Proof.
  induction x as [|c x IH]; intros H; [reflexivity|].
  cbn [drop_ws]. destruct (is_ws c); [|exact H].
  cbn [forallb] in H. apply andb_true_iff in H as [_ Hx]. apply IH, Hx.
Qed.

Lemma filter_trim (q : N -> bool) x :
  forallb (fun c => negb (is_ws c) || negb (q c)) x = true ->
  filter q (trim x) = filter q x.
Proof.
  intros H. unfold trim. rewrite filter_rev, filter_drop_ws.
  - rewrite filter_rev, rev_involutive. apply filter_drop_ws, H.
  - rewrite forallb_rev. apply forallb_drop_ws, H.
Qed.

Lemma fields_one sep x :
  lacks sep x = true -> trim x <> [] -> fields sep x = [trim x].
Proof.
  intros Hx Hy. unfold fields. rewrite (split_on_lacks _ _ Hx).
  cbn [map filter]. destruct (trim x); [congruence | reflexivity].
Qed.

Lemma fields_none sep x :
  lacks sep x = true -> trim x = [] -> fields sep x = [].
Proof.
  intros Hx Ht. unfold fields. rewrite (split_on_lacks _ _ Hx).
  cbn [map filter]. rewrite Ht. reflexivity.
Qed.

Lemma fields_app sep x rest :
  lacks sep x = true ->
  fields sep (x ++ sep :: rest) = fields sep x ++ fields sep rest.
Proof.
  intros Hx. unfold fields. rewrite (split_on_app _ _ _ Hx), (split_on_lacks _ _ Hx).
  cbn [map filter]. destruct (negb (isnil (trim x))); reflexivity.
Qed.

Lemma fields_cons sep x rest :
  lacks sep x = true -> trim x <> [] ->
  fields sep (x ++ sep :: rest) = trim x :: fields sep rest.
Proof. intros Hx Hy. rewrite (fields_app _ _ _ Hx), (fields_one _ _ Hx Hy). reflexivity. Qed.

Lemma fields_skip sep x rest :
  lacks sep x = true -> trim x = [] ->
  fields sep (x ++ sep :: rest) = fields sep rest.
Proof. intros Hx Ht. rewrite (fields_app _ _ _ Hx), (fields_none _ _ Hx Ht). reflexivity. Qed.

Lemma fields_end sep x r :
  lacks sep x = true -> trim x <> [] -> lacks sep r = true -> all_ws r = true ->
  fields sep (x ++ r) = [trim x].
Proof.
  intros Hx Hy Hr Hw. rewrite <- (trim_app_ws x r Hw) in *. apply fields_one; [|exact Hy].
  rewrite lacks_app, Hx, Hr. reflexivity.
Qed.

(** the members of [xs] with [s] between them: [join] of Text.v, for lists
    of any type (pieces as well as characters) *)
Fixpoint sepby {A} (s : list A) (xs : list (list A)) : list A :=
  match xs with
  | [] => []
  | x :: xs' => match xs' with [] => x | _ :: _ => x ++ s ++ sepby s xs' end
  end.

Lemma sepby_cons2 {A} (s x y : list A) ys :
  sepby s (x :: y :: ys) = x ++ s ++ sepby s (y :: ys).
Proof. reflexivity. Qed.

Lemma flat_map_sepby {A B} (f : A -> list B) s xs :
  flat_map f (sepby s xs) = sepby (flat_map f s) (map (flat_map f) xs).
Proof.
  induction xs as [|x xs IH]; [reflexivity|]. destruct xs as [|y ys]; [reflexivity|].
  cbn [map] in *. rewrite !sepby_cons2, !flat_map_app, IH. reflexivity.
Qed.

Lemma forallb_sepby {A} (p : A -> bool) s xs :
  forallb p s = true -> Forall (fun x => forallb p x = true) xs ->
  forallb p (sepby s xs) = true.
Proof.
  intros Hs H. induction H as [|x xs Hx Hxs IH]; [reflexivity|].
  destruct xs as [|y ys]; [exact Hx|].
  rewrite sepby_cons2, !forallb_app, Hx, Hs, IH. reflexivity.
Qed.

Lemma fields_sepby sep xs :
  Forall (fun x => lacks sep x = true /\ trim x <> []) xs ->
  fields sep (sepby [sep] xs) = map trim xs.
Proof.
  intros H. induction H as [|x xs [Hx Hy] Hxs IH]; [reflexivity|].
  destruct xs as [|y ys]; [apply fields_one; assumption|].
  change (sepby [sep] (x :: y :: ys)) with (x ++ sep :: sepby [sep] (y :: ys)).
  cbn [map] in *. rewrite (fields_cons _ _ _ Hx Hy), IH. reflexivity.
Qed.

Lemma strip_tok t rest :
  lacks ch_hash t = true ->
  strip_comments false (t ++ rest) = t ++ strip_comments false rest.
Proof.
  induction t as [|c t IH]; intros H; [reflexivity|].
  apply lacks_cons_true in H as [Hc Ht]. cbn [app strip_comments]. rewrite Hc. cbn [andb].
  rewrite (IH Ht). reflexivity.
Qed.

Lemma strip_in_comment b rest :
  lacks ch_lf b = true ->
  strip_comments true (b ++ ch_lf :: rest) = strip_comments false rest.
Proof.
  induction b as [|c b IH]; intros H.
  - cbn [app strip_comments]. rewrite N.eqb_refl. reflexivity.
  - apply lacks_cons_true in H as [Hc Hb]. cbn [app strip_comments]. rewrite Hc. apply IH, Hb.
Qed.

Lemma strip_comment b rest :
  lacks ch_lf b = true ->
  strip_comments false (ch_hash :: b ++ ch_lf :: rest) = strip_comments false rest.
Proof.
  intros H. cbn [strip_comments]. rewrite N.eqb_refl, existsb_app.
  cbn [existsb]. rewrite N.eqb_refl, orb_true_r. cbn [orb andb].
  apply strip_in_comment, H.
Qed.

(** items that are stripped one by one *)
Lemma strip_flat_map {A} (f f' : A -> text) (ok : A -> bool) :
  (forall x r, ok x = true ->
     strip_comments false (f x ++ r) = f' x ++ strip_comments false r) ->
  forall xs r, forallb ok xs = true ->
    strip_comments false (flat_map f xs ++ r) = flat_map f' xs ++ strip_comments false r.
Proof.
  intros Hf xs r. induction xs as [|x xs IH]; intros H; [reflexivity|].
  cbn [forallb] in H. apply andb_true_iff in H as [Hx Hxs].
  cbn [flat_map]. rewrite <- !app_assoc, (Hf _ _ Hx), (IH Hxs). reflexivity.
Qed.

Lemma while_app p a x :
  forallb p a = true -> match x with [] => true | c :: _ => negb (p c) end = true ->
  take_while p (a ++ x) = a /\ drop_while p (a ++ x) = x.
Proof.
  intros Ha Hx. induction a as [|c a IH].
  - destruct x as [|d x]; [split; reflexivity|]. cbn [app take_while drop_while].
    apply negb_true_iff in Hx. rewrite Hx. split; reflexivity.
  - cbn [forallb] in Ha. apply andb_true_iff in Ha as [Hc Ha].
    cbn [app take_while drop_while]. rewrite Hc. destruct (IH Ha) as [-> ->].
    split; reflexivity.
Qed.

Lemma text_eqb_eq a b : text_eqb a b = true <-> a = b.
Proof. apply (list_eqb_spec N.eqb N.eqb_eq). Qed.

Lemma text_eqb_refl t : text_eqb t t = true.
Proof. apply text_eqb_eq. reflexivity. Qed.

(** ** Abstract syntax and the direct interpreter *)

(** an id argument: a literal, a [ν]-prefixed literal, a [$variable] *)
Inductive arg :=
| ALit (n : N)
| ANu (n : N)
| AVar (name : text).

(** a command; [l] is the text of the label, [bs] the data bytes *)
Inductive cmd :=
| CAdd (a : arg)
| CBind (a1 a2 : arg) (l : text)
| CPut (a : arg) (bs : list N).

(** the id an argument stands for.  A literal is itself (ids at or beyond
    the capacity all behave alike, see [clamp_id]); a variable is looked up
    in the table and, when absent, bound to a fresh [next_id()] *)
Definition resolve (vs : vars) (g : sodg) (a : arg) : outcome (vars * sodg * nat) :=
  match a with
  | ALit n => Ok (vs, g, clamp_id g n)
  | ANu n => Ok (vs, g, clamp_id g n)
  | AVar x =>
      match var_get vs x with
      | Some v => Ok (vs, g, v)
      | None => r <- op_next_id g ;; Ok ((x, snd r) :: vs, fst r, snd r)
      end
  end.

(** one command = its arguments resolved left to right, then one API call *)
Definition exec_cmd (n : nat) (vs : vars) (g : sodg) (c : cmd)
  : outcome (sres (vars * sodg)) :=
  match c with
  | CAdd a =>
      r <- resolve vs g a ;;
      match r with (vs1, g1, v) =>
        g2 <- op_add g1 v ;; Ok (SOk (vs1, g2))
      end
  | CBind a1 a2 l =>
      r1 <- resolve vs g a1 ;;
      match r1 with (vs1, g1, v1) =>
        r2 <- resolve vs1 g1 a2 ;;
        match r2 with (vs2, g2, v2) =>
          match label_from_str l with
          | Some lb => g3 <- op_bind n g2 v1 v2 lb ;; Ok (SOk (vs2, g3))
          | None => Ok (SErr g2)
          end
        end
      end
  | CPut a bs =>
      r <- resolve vs g a ;;
      match r with (vs1, g1, v) =>
        g2 <- op_put g1 v (from_vec bs) ;; Ok (SOk (vs1, g2))
      end
  end.

(** the commands in order; stops at the first [Err] *)
Fixpoint exec_run (n : nat) (vs : vars) (g : sodg) (prog : list cmd)
  : outcome (sres (vars * sodg)) :=
  match prog with
  | [] => Ok (SOk (vs, g))
  | c :: rest =>
      r <- exec_cmd n vs g c ;;
      match r with
      | SOk (vs1, g1) => exec_run n vs1 g1 rest
      | SErr g' => Ok (SErr g')
      end
  end.

(** what [deploy_to] reports: the graph, and the number of commands *)
Definition exec (n : nat) (vs : vars) (g : sodg) (prog : list cmd)
  : outcome (sodg * option nat) :=
  r <- exec_run n vs g prog ;;
  Ok (match r with
      | SOk (_, g') => (g', Some (length prog))
      | SErr g' => (g', None)
      end).

(** ** Formats, the renderer, well-formedness *)

Inductive gitem :=
| GWs (c : N)            (* one white-space character *)
| GCom (body : text).    (* a comment: # body LF *)

Definition gap := list gitem.

Definition gitem_text (i : gitem) : text :=
  match i with
  | GWs c => [c]
  | GCom b => ch_hash :: b ++ [ch_lf]
  end.

Definition gap_text (gp : gap) : text := flat_map gitem_text gp.

(** any Unicode white-space character; a comment body is anything without
    a line feed (the regex [#.*\n]: [.] does not match LF) *)
Definition legal_gitem (i : gitem) : bool :=
  match i with GWs c => is_ws c | GCom b => lacks ch_lf b end.

Definition legal_gap (gp : gap) : bool := forallb legal_gitem gp.

Definition legal_gaps (gs : gap * gap) : bool := legal_gap (fst gs) && legal_gap (snd gs).

(** per data byte: what precedes it, the case of its two digits, and what
    stands between the two digits *)
Record bfmt := mkBF { bf_sep : text; bf_up1 : bool; bf_mid : text; bf_up2 : bool }.

Definition bf_default : bfmt := mkBF [] true [] true.

Definition hexdigit (up : bool) (d : N) : N :=
  if up then hexdigit_upper d else hexdigit_lower d.

Fixpoint tok_data (fs : list bfmt) (e : text) (bs : list N) : text :=
  match bs with
  | [] => e
  | b :: bs' =>
      let f := hd bf_default fs in
      bf_sep f ++ hexdigit (bf_up1 f) (b / 16) :: bf_mid f
        ++ hexdigit (bf_up2 f) (b mod 16) :: tok_data (tl fs) e bs'
  end.

(** separators inside data: blank, tab, LF, CR, dash (the DATA_STRIP regex) *)
Definition strip_text (t : text) : bool := forallb is_data_strip t.

Definition legal_bfmt (f : bfmt) : bool := strip_text (bf_sep f) && strip_text (bf_mid f).

Record cfmt := mkCF {
  cf_pre : gap;          (* before the command name *)
  cf_sp : nat;           (* number of blanks between the name and ( *)
  cf_a1 : gap * gap;     (* around the first argument *)
  cf_a2 : gap * gap;     (* around the second argument *)
  cf_a3 : gap * gap;     (* around the third argument *)
  cf_data : list bfmt;   (* per data byte *)
  cf_dend : text;        (* after the last data byte *)
  cf_post : gap          (* between ) and ; *)
}.

Definition cf_default : cfmt := mkCF [] 0 ([], []) ([], []) ([], []) [] [] [].

Definition legal_cfmt (cf : cfmt) : bool :=
  legal_gap (cf_pre cf) && legal_gaps (cf_a1 cf) && legal_gaps (cf_a2 cf)
  && legal_gaps (cf_a3 cf) && forallb legal_bfmt (cf_data cf)
  && strip_text (cf_dend cf) && legal_gap (cf_post cf).

(** [f_cmds]: one entry per command (missing entries count as
    [cf_default]); [f_semi]: is the last command followed by [;];
    [f_end]: what follows the last command *)
Record fmt := mkF { f_cmds : list cfmt; f_semi : bool; f_end : gap }.

Definition legal_fmt (f : fmt) : bool :=
  forallb legal_cfmt (f_cmds f) && legal_gap (f_end f).

Definition tok_arg (a : arg) : text :=
  match a with
  | ALit n => print_dec n
  | ANu n => ch_nu :: print_dec n
  | AVar x => ch_dollar :: x
  end.

Definition cmd_name (c : cmd) : text :=
  match c with CAdd _ => t_ADD | CBind _ _ _ => t_BIND | CPut _ _ => t_PUT end.

Inductive piece := PTok (t : text) | PGap (gp : gap).

Definition piece_text (p : piece) : text :=
  match p with PTok t => t | PGap gp => gap_text gp end.

Definition flat (ps : list piece) : text := flat_map piece_text ps.

Definition lay_arg (gs : gap * gap) (t : text) : list piece :=
  [PGap (fst gs); PTok t; PGap (snd gs)].

Definition lay_args (cf : cfmt) (c : cmd) : list piece :=
  match c with
  | CAdd a => lay_arg (cf_a1 cf) (tok_arg a)
  | CBind a1 a2 l =>
      lay_arg (cf_a1 cf) (tok_arg a1) ++ PTok [ch_comma]
        :: lay_arg (cf_a2 cf) (tok_arg a2) ++ PTok [ch_comma]
        :: lay_arg (cf_a3 cf) l
  | CPut a bs =>
      lay_arg (cf_a1 cf) (tok_arg a) ++ PTok [ch_comma]
        :: lay_arg (cf_a2 cf) (tok_data (cf_data cf) (cf_dend cf) bs)
  end.

Definition lay_cmd (cf : cfmt) (c : cmd) : list piece :=
  PGap (cf_pre cf) :: PTok (cmd_name c) :: PTok (repeat ch_space (cf_sp cf))
    :: PTok [ch_lpar] :: lay_args cf c ++ [PTok [ch_rpar]; PGap (cf_post cf)].

Fixpoint lay_prog (semi : bool) (fs : list cfmt) (prog : list cmd) : list piece :=
  match prog with
  | [] => []
  | c :: cs =>
      lay_cmd (hd cf_default fs) c
        ++ (match cs with
            | [] => if semi then [PTok [ch_semi]] else []
            | _ => [PTok [ch_semi]]
            end)
        ++ lay_prog semi (tl fs) cs
  end.

Definition render (f : fmt) (prog : list cmd) : text :=
  flat (lay_prog (f_semi f) (f_cmds f) prog ++ [PGap (f_end f)]).

(** a sequence of commands, each followed by [;] *)
Definition render_cmds (fs : list cfmt) (prog : list cmd) : text :=
  flat (lay_prog true fs prog).

(** characters that end a token early *)
Definition special (c : N) : bool :=
  ((c =? ch_hash) || (c =? ch_comma) || (c =? ch_rpar) || (c =? ch_semi))%N.

Definition plain_text (t : text) : bool := forallb (fun c => negb (special c)) t.

(** what [render] may write and [deploy_to] still reads back; the reason for
    each restriction is given at [C14_def_wf] (P_C14.v) *)
Definition wf_arg (a : arg) : bool :=
  match a with
  | ALit n => (n <=? usize_max)%N
  | ANu n => (n <=? usize_max)%N
  | AVar x => plain_text x && nwl (rev x)
  end.

Definition wf_ltext (l : text) : bool :=
  plain_text l && negb (isnil l) && nwl l && nwl (rev l).

Definition wf_cmd (c : cmd) : bool :=
  match c with
  | CAdd a => wf_arg a
  | CBind a1 a2 l => wf_arg a1 && wf_arg a2 && wf_ltext l
  | CPut a bs => wf_arg a && negb (isnil bs) && forallb wf_byte bs
  end.

Definition wf_prog (prog : list cmd) : bool := forallb wf_cmd prog.

Definition labels_ok (prog : list cmd) : bool :=
  forallb (fun c => match c with
                    | CBind _ _ l => match label_from_str l with Some _ => true | None => false end
                    | _ => true
                    end) prog.

(** ** [deploy_one]: a parser without effects, then the interpreter *)

Definition is_some {A} (o : option A) : bool :=
  match o with Some _ => true | None => false end.

(** the argument that a text denotes, in one of the three notations *)
Definition arg_syn (s : text) : option arg :=
  match s with
  | [] => None
  | h :: t =>
      if (h =? ch_dollar)%N then Some (AVar t)
      else if (h =? ch_nu)%N then option_map ANu (parse_usize t)
      else option_map ALit (parse_usize s)
  end.

(** [parse_arg] is [arg_syn] then [resolve]; stated with what [deploy_one]
    does next *)
Lemma parse_arg_syn {B} vs g s (K : vars * sodg * nat -> outcome (sres B)) :
  (r <- parse_arg vs g s ;; match r with SOk x => K x | SErr g' => Ok (SErr g') end) =
  match arg_syn s with
  | Some a => r <- resolve vs g a ;; K r
  | None => Ok (SErr g)
  end.
Proof.
  destruct s as [|h t]; [reflexivity|]. unfold parse_arg, arg_syn.
  destruct (h =? ch_dollar)%N.
  - cbn [resolve]. destruct (var_get vs t); [reflexivity|].
    rewrite !obind_assoc. reflexivity.
  - destruct (h =? ch_nu)%N; [destruct (parse_usize t) | destruct (parse_usize (h :: t))];
      reflexivity.
Qed.

Definition arg_ok (s : text) : bool :=
  match s with
  | [] => false
  | h :: t =>
      if (h =? ch_dollar)%N then true
      else if (h =? ch_nu)%N then is_some (parse_usize t)
      else is_some (parse_usize s)
  end.

Lemma arg_ok_syn s : arg_ok s = is_some (arg_syn s).
Proof.
  destruct s as [|h t]; [reflexivity|]. unfold arg_ok, arg_syn.
  destruct (h =? ch_dollar)%N; [reflexivity|].
  destruct (h =? ch_nu)%N; [destruct (parse_usize t) | destruct (parse_usize (h :: t))];
    reflexivity.
Qed.

Definition keep_data (c : N) : bool := negb (is_data_strip c).

(** the bytes that a data text denotes *)
Definition data_syn (s : text) : option (list N) :=
  match filter keep_data s with
  | [] => None
  | d => hex_decode d
  end.

Lemma parse_data_syn s : parse_data s = option_map from_vec (data_syn s).
Proof.
  unfold parse_data, data_syn. change (fun c => negb (is_data_strip c)) with keep_data.
  destruct (filter keep_data s); reflexivity.
Qed.

(** what a command text amounts to: a command, or the arguments that are
    resolved before [Err] is returned (at most two) *)
Inductive parsed :=
| Good (c : cmd)
| Bad0
| Bad1 (a : arg)
| Bad2 (a1 a2 : arg).

Definition run_parsed (n : nat) (vs : vars) (g : sodg) (p : parsed)
  : outcome (sres (vars * sodg)) :=
  match p with
  | Good c => exec_cmd n vs g c
  | Bad0 => Ok (SErr g)
  | Bad1 a => r <- resolve vs g a ;; match r with (_, g1, _) => Ok (SErr g1) end
  | Bad2 a1 a2 =>
      r1 <- resolve vs g a1 ;;
      match r1 with (vs1, g1, _) =>
        r2 <- resolve vs1 g1 a2 ;; match r2 with (_, g2, _) => Ok (SErr g2) end
      end
  end.

(** the LINE regex, the name, the arguments from left to right; nothing is
    asked of the label here ([exec_cmd] does that), surplus arguments are
    ignored *)
Definition cmd_syn (c : text) : parsed :=
  match parse_line c with
  | None => Bad0
  | Some (name, raw) =>
      let args := fields ch_comma raw in
      if text_eqb name t_ADD then
        match args with
        | a1 :: _ => match arg_syn a1 with Some a => Good (CAdd a) | None => Bad0 end
        | [] => Bad0
        end
      else if text_eqb name t_BIND then
        match args with
        | a1 :: rest =>
            match arg_syn a1, rest with
            | None, _ => Bad0
            | Some b1, [] => Bad1 b1
            | Some b1, a2 :: rest2 =>
                match arg_syn a2, rest2 with
                | None, _ => Bad1 b1
                | Some b2, [] => Bad2 b1 b2
                | Some b2, l :: _ => Good (CBind b1 b2 l)
                end
            end
        | [] => Bad0
        end
      else if text_eqb name t_PUT then
        match args with
        | a1 :: rest =>
            match arg_syn a1, rest with
            | None, _ => Bad0
            | Some b, [] => Bad1 b
            | Some b, a2 :: _ =>
                match data_syn a2 with Some bs => Good (CPut b bs) | None => Bad1 b end
            end
        | [] => Bad0
        end
      else Bad0
  end.

Theorem deploy_one_syn n vs g c : deploy_one n vs g c = run_parsed n vs g (cmd_syn c).
Proof.
  unfold deploy_one, cmd_syn.
  destruct (parse_line c) as [[name raw]|]; [|reflexivity]. cbv zeta.
  destruct (text_eqb name t_ADD);
    [|destruct (text_eqb name t_BIND); [|destruct (text_eqb name t_PUT); [|reflexivity]]];
    (destruct (fields ch_comma raw) as [|a1 rest]; [reflexivity|]);
    rewrite parse_arg_syn; destruct (arg_syn a1) as [b1|]; try reflexivity.
  - destruct rest as [|a2 rest2]; [reflexivity|].
    destruct (arg_syn a2) as [b2|] eqn:E2; [destruct rest2 as [|l rest3]|];
      cbn [run_parsed exec_cmd]; apply obind_ext; intros [[vs1 g1] v1];
      rewrite parse_arg_syn, E2; reflexivity.
  - destruct rest as [|a2 rest2]; [reflexivity|].
    rewrite parse_data_syn. destruct (data_syn a2); reflexivity.
Qed.

(** the command matches the LINE regex, has a known name, enough
    arguments, and every argument parses *)
Definition syntax_ok (c : text) : bool :=
  match parse_line c with
  | None => false
  | Some (name, raw) =>
      let args := fields ch_comma raw in
      if text_eqb name t_ADD then
        match args with
        | a1 :: _ => arg_ok a1
        | [] => false
        end
      else if text_eqb name t_BIND then
        match args with
        | a1 :: a2 :: a3 :: _ => arg_ok a1 && arg_ok a2 && is_some (label_from_str a3)
        | _ => false
        end
      else if text_eqb name t_PUT then
        match args with
        | a1 :: a2 :: _ => arg_ok a1 && is_some (parse_data a2)
        | _ => false
        end
      else false
  end.

Definition label_ok (c : cmd) : bool :=
  match c with
  | CBind _ _ l => is_some (label_from_str l)
  | _ => true
  end.

Definition parsed_ok (p : parsed) : bool :=
  match p with Good c => label_ok c | _ => false end.

Lemma syntax_ok_syn c : syntax_ok c = parsed_ok (cmd_syn c).
Proof.
  unfold syntax_ok, cmd_syn.
  destruct (parse_line c) as [[name raw]|]; [|reflexivity]. cbv zeta.
  destruct (text_eqb name t_ADD);
    [|destruct (text_eqb name t_BIND); [|destruct (text_eqb name t_PUT); [|reflexivity]]];
    (destruct (fields ch_comma raw) as [|a1 rest]; [reflexivity|]).
  - rewrite arg_ok_syn. destruct (arg_syn a1); reflexivity.
  - destruct rest as [|a2 [|l rest3]]; rewrite ?arg_ok_syn;
      destruct (arg_syn a1); try reflexivity; destruct (arg_syn a2); reflexivity.
  - destruct rest as [|a2 rest2]; rewrite ?arg_ok_syn, ?parse_data_syn;
      destruct (arg_syn a1); try reflexivity; destruct (data_syn a2); reflexivity.
Qed.

(** [deploy_cmds] without the count: the state a list of commands leaves *)
Fixpoint run_cmds (n : nat) (vs : vars) (g : sodg) (cs : list text)
  : outcome (sres (vars * sodg)) :=
  match cs with
  | [] => Ok (SOk (vs, g))
  | c :: rest =>
      r <- deploy_one n vs g c ;;
      match r with
      | SOk (vs1, g1) => run_cmds n vs1 g1 rest
      | SErr g' => Ok (SErr g')
      end
  end.

Lemma deploy_cmds_app n cs1 : forall vs g cs2 pos,
  deploy_cmds n vs g (cs1 ++ cs2) pos =
  (r <- run_cmds n vs g cs1 ;;
   match r with
   | SOk (vs1, g1) => deploy_cmds n vs1 g1 cs2 (pos + length cs1)
   | SErr g' => Ok (g', None)
   end).
Proof.
  induction cs1 as [|c cs IH]; intros vs g cs2 pos.
  - cbn [app run_cmds obind length]. rewrite Nat.add_0_r. reflexivity.
  - cbn [app deploy_cmds run_cmds length]. rewrite obind_assoc.
    apply obind_ext. intros [[vs1 g1]|g']; [|reflexivity].
    rewrite IH, Nat.add_succ_r. reflexivity.
Qed.

(** ** One step classified *)

(** [g'] is [g] after at most one [next_id()] call *)
Definition alloc1 (g g' : sodg) : Prop := g' = g \/ exists v, op_next_id g = Ok (g', v).

(** [g'] is [g] after at most two [next_id()] calls *)
Definition allocated (g g' : sodg) : Prop :=
  g' = g \/
  (exists v, op_next_id g = Ok (g', v)) \/
  (exists g1 v1 v2, op_next_id g = Ok (g1, v1) /\ op_next_id g1 = Ok (g', v2)).

Lemma allocated_two g g1 g2 : alloc1 g g1 -> alloc1 g1 g2 -> allocated g g2.
Proof. intros [->|[v1 H1]] [->|[v2 H2]]; unfold allocated; eauto 7. Qed.

(** a panic of one of the four API calls *)
Definition api_panic (n : nat) (k : pkind) : Prop :=
  (exists g1, op_next_id g1 = Panic k) \/
  (exists g1 v, op_add g1 v = Panic k) \/
  (exists g1 v1 v2 l, op_bind n g1 v1 v2 l = Panic k) \/
  (exists g1 v d, op_put g1 v d = Panic k).

(** the complete classification of one step that starts from [g]; [ok]
    says whether the command is syntactically well formed *)
Definition step_spec (n : nat) (ok : bool) (g : sodg) (r : outcome (sres (vars * sodg))) : Prop :=
  match r with
  | Ok (SOk _) => ok = true
  | Ok (SErr g') => ok = false /\ allocated g g'
  | Panic k => api_panic n k /\ (ok = false -> exists g1, op_next_id g1 = Panic k)
  | _ => False
  end.

(** resolving an argument moves the allocator by one call at most; its one
    panic is that of [next_id()] *)
Lemma step_resolve n ok g0 vs g a K :
  (forall vs1 g1 v, alloc1 g g1 -> step_spec n ok g0 (K (vs1, g1, v))) ->
  step_spec n ok g0 (r <- resolve vs g a ;; K r).
Proof.
  intros HK. destruct a as [m|m|x]; cbn [resolve obind]; try (apply HK; left; reflexivity).
  destruct (var_get vs x) as [v|]; [apply HK; left; reflexivity|].
  pose proof (fine_next_id g) as F.
  destruct (op_next_id g) as [[g1 v]|k| |] eqn:E; cbn [obind fine fst snd] in *;
    try contradiction.
  - apply HK. right. exists v. exact E.
  - split; [left|intros _]; exists g; exact E.
Qed.

(** an API call returns or panics ([fine], Effects.v) *)
Lemma step_call n g0 (x : outcome sodg) vs1 :
  fine x -> (forall k, x = Panic k -> api_panic n k) ->
  step_spec n true g0 (g2 <- x ;; Ok (SOk (vs1, g2))).
Proof.
  destruct x; cbn [obind fine step_spec]; intros F H; try contradiction;
    [reflexivity | split; [auto | discriminate]].
Qed.

Lemma run_parsed_spec n vs g p : step_spec n (parsed_ok p) g (run_parsed n vs g p).
Proof.
  destruct p as [[a|a1 a2 l|a bs]| |a|a1 a2]; cbn [run_parsed exec_cmd parsed_ok label_ok].
  - apply step_resolve. intros vs1 g1 v _.
    apply step_call; [apply fine_add | intros k E; right; left; eauto].
  - apply step_resolve. intros vs1 g1 v1 A1. apply step_resolve. intros vs2 g2 v2 A2.
    destruct (label_from_str l) as [lb|]; cbn [is_some].
    + apply step_call; [apply fine_bind | intros k E; right; right; left; eauto].
    + split; [reflexivity | exact (allocated_two _ _ _ A1 A2)].
  - apply step_resolve. intros vs1 g1 v _.
    apply step_call; [apply fine_put | intros k E; right; right; right; eauto].
  - split; [reflexivity | left; reflexivity].
  - apply step_resolve. intros vs1 g1 v A.
    split; [reflexivity | exact (allocated_two _ _ _ A (or_introl eq_refl))].
  - apply step_resolve. intros vs1 g1 v1 A1. apply step_resolve. intros vs2 g2 v2 A2.
    split; [reflexivity | exact (allocated_two _ _ _ A1 A2)].
Qed.

Theorem deploy_one_spec n vs g c : step_spec n (syntax_ok c) g (deploy_one n vs g c).
Proof. rewrite deploy_one_syn, syntax_ok_syn. apply run_parsed_spec. Qed.

Lemma deploy_one_bad n vs g c :
  syntax_ok c = false ->
  (exists g', deploy_one n vs g c = Ok (SErr g') /\ allocated g g') \/
  (exists k g1, deploy_one n vs g c = Panic k /\ op_next_id g1 = Panic k).
Proof.
  intros Hs. pose proof (deploy_one_spec n vs g c) as S. rewrite Hs in S.
  destruct (deploy_one n vs g c) as [[x|g']|k| |]; cbn [step_spec] in S; try contradiction.
  - discriminate.
  - left. exists g'. split; [reflexivity | apply S].
  - right. destruct S as [_ S]. destruct (S eq_refl) as [g1 Hg1]. exists k, g1. split; auto.
Qed.

Lemma deploy_one_good n vs g c :
  syntax_ok c = true ->
  (exists x, deploy_one n vs g c = Ok (SOk x)) \/
  (exists k, deploy_one n vs g c = Panic k /\ api_panic n k).
Proof.
  intros Hs. pose proof (deploy_one_spec n vs g c) as S. rewrite Hs in S.
  destruct (deploy_one n vs g c) as [[x|g']|k| |]; cbn [step_spec] in S; try contradiction.
  - left. exists x. reflexivity.
  - destruct S as [S _]. discriminate.
  - right. exists k. split; [reflexivity | apply S].
Qed.

Lemma exec_cmd_no_err n vs g c g' :
  label_ok c = true -> exec_cmd n vs g c <> Ok (SErr g').
Proof.
  intros Hl E. pose proof (run_parsed_spec n vs g (Good c)) as S.
  cbn [run_parsed parsed_ok] in S. rewrite E, Hl in S. destruct S as [S _]. discriminate.
Qed.

Lemma deploy_cmds_spec n cs : forall vs g pos,
  match deploy_cmds n vs g cs pos with
  | Ok _ => True
  | Panic k => api_panic n k
  | _ => False
  end.
Proof.
  induction cs as [|c cs IH]; intros vs g pos; [exact I|].
  cbn [deploy_cmds]. pose proof (deploy_one_spec n vs g c) as S.
  destruct (deploy_one n vs g c) as [[[vs1 g1]|g']|k| |]; cbn [obind step_spec] in *;
    [apply IH | exact I | apply S | contradiction..].
Qed.

(** ** The pipeline on a rendered script *)

Definition is_hexc (c : N) : bool :=
  ((48 <=? c) && (c <=? 57) || (65 <=? c) && (c <=? 70) || (97 <=? c) && (c <=? 102))%N.

(** the characters of a data token: separators and hex digits *)
Definition datac (c : N) : bool := is_data_strip c || is_hexc c.

(** white space, digits, hex digits and data separators are unions of
    intervals of code points: that two of them are disjoint is linear arithmetic *)
Ltac by_ranges :=
  unfold is_ws, is_digit, is_hexc, is_data_strip, ch_dash; lia.

Lemma plain_text_spec t :
  plain_text t = true <->
  ~ In ch_hash t /\ ~ In ch_comma t /\ ~ In ch_rpar t /\ ~ In ch_semi t.
Proof.
  unfold plain_text. rewrite forallb_forall. split.
  - intros H. repeat split; intros Hin; specialize (H _ Hin); discriminate.
  - intros (H1 & H2 & H3 & H4) c Hc. unfold special.
    destruct (N.eqb_spec c ch_hash) as [->|?]; [contradiction|].
    destruct (N.eqb_spec c ch_comma) as [->|?]; [contradiction|].
    destruct (N.eqb_spec c ch_rpar) as [->|?]; [contradiction|].
    destruct (N.eqb_spec c ch_semi) as [->|?]; [contradiction|]. reflexivity.
Qed.

Lemma plain_lacks x t : special x = true -> plain_text t = true -> lacks x t = true.
Proof. intros Hx. apply forallb_lacks. rewrite Hx. reflexivity. Qed.

Lemma special_rpar : special ch_rpar = true. Proof. reflexivity. Qed.
Lemma special_semi : special ch_semi = true. Proof. reflexivity. Qed.

(** a text over a class of characters that has none of the four special ones *)
Lemma class_plain (p : N -> bool) t :
  p ch_hash = false -> p ch_comma = false -> p ch_rpar = false -> p ch_semi = false ->
  forallb p t = true -> plain_text t = true.
Proof.
  intros H1 H2 H3 H4 H. apply plain_text_spec.
  repeat split; apply lacks_spec, (forallb_lacks p); assumption.
Qed.

Lemma print_dec_plain n : plain_text (print_dec n) = true.
Proof. apply (class_plain is_digit); try reflexivity. apply print_dec_all_digits. Qed.

Lemma print_dec_no_ws n : forallb (fun c => negb (is_ws c)) (print_dec n) = true.
Proof.
  apply (forallb_impl is_digit); [|apply print_dec_all_digits]. intros c. by_ranges.
Qed.

(** a text without white space is tight *)
Lemma nwl_forallb t : forallb (fun c => negb (is_ws c)) t = true -> nwl t = true.
Proof.
  destruct t as [|c t]; [reflexivity|]. cbn [forallb nwl]. intros H.
  apply andb_true_iff in H as [Hc _]. exact Hc.
Qed.

Lemma nwl_rev_forallb t : forallb (fun c => negb (is_ws c)) t = true -> nwl (rev t) = true.
Proof. intros H. apply nwl_forallb. rewrite forallb_rev. exact H. Qed.

Lemma nwl_app a b : nwl (a ++ b) = match a with [] => nwl b | _ => nwl a end.
Proof. destruct a; reflexivity. Qed.

Definition gitem_ws (i : gitem) : text :=
  match i with GWs c => [c] | GCom _ => [] end.

(** the gap once its comments are gone *)
Definition gap_ws (gp : gap) : text := flat_map gitem_ws gp.

Lemma gap_ws_cons i gp : gap_ws (i :: gp) = gitem_ws i ++ gap_ws gp.
Proof. reflexivity. Qed.

Lemma gap_text_cons i gp : gap_text (i :: gp) = gitem_text i ++ gap_text gp.
Proof. reflexivity. Qed.

Lemma gap_ws_all_ws gp : legal_gap gp = true -> all_ws (gap_ws gp) = true.
Proof.
  induction gp as [|i gp IH]; intros H; [reflexivity|].
  cbn [legal_gap forallb] in H. apply andb_true_iff in H as [Hi Hgp].
  rewrite gap_ws_cons, all_ws_app, (IH Hgp), andb_true_r.
  destruct i as [c|b]; cbn [gitem_ws all_ws forallb legal_gitem] in *; [|reflexivity].
  rewrite Hi. reflexivity.
Qed.

Lemma strip_gap gp rest :
  legal_gap gp = true ->
  strip_comments false (gap_text gp ++ rest) = gap_ws gp ++ strip_comments false rest.
Proof.
  apply strip_flat_map. intros [c|b] r H; cbn [gitem_text gitem_ws legal_gitem app] in *.
  - apply (strip_tok [c]), (forallb_lacks is_ws); [reflexivity|].
    cbn [forallb]. rewrite H. reflexivity.
  - rewrite <- app_assoc. apply strip_comment, H.
Qed.

Definition piece_plain (p : piece) : text :=
  match p with PTok t => t | PGap gp => gap_ws gp end.

(** a piece list once its comments are gone *)
Definition plain (ps : list piece) : text := flat_map piece_plain ps.

(** [x] is in no token of [p], and the gaps of [p] are legal *)
Definition piece_lacks (x : N) (p : piece) : bool :=
  match p with PTok t => lacks x t | PGap gp => legal_gap gp end.

Lemma flat_app_pieces a b : flat (a ++ b) = flat a ++ flat b.
Proof. apply flat_map_app. Qed.

Lemma strip_flat ps rest :
  forallb (piece_lacks ch_hash) ps = true ->
  strip_comments false (flat ps ++ rest) = plain ps ++ strip_comments false rest.
Proof.
  apply strip_flat_map. intros [t|gp] r H; [apply strip_tok, H | apply strip_gap, H].
Qed.

(** what is left of a legal gap is white space *)
Lemma lacks_plain x ps :
  is_ws x = false -> forallb (piece_lacks x) ps = true -> lacks x (plain ps) = true.
Proof.
  intros Hx H. induction ps as [|p ps IH]; [reflexivity|].
  cbn [forallb] in H. apply andb_true_iff in H as [Hp Hps].
  change (plain (p :: ps)) with (piece_plain p ++ plain ps).
  rewrite lacks_app, (IH Hps), andb_true_r.
  destruct p as [t|gp]; [exact Hp|]. apply (forallb_lacks is_ws _ _ Hx), gap_ws_all_ws, Hp.
Qed.

Lemma tok_arg_plain a : wf_arg a = true -> plain_text (tok_arg a) = true.
Proof.
  destruct a as [n|n|x]; cbn [wf_arg tok_arg]; intros H.
  - apply print_dec_plain.
  - exact (print_dec_plain n).
  - apply andb_true_iff in H as [H _]. exact H.
Qed.

Lemma tok_arg_nonempty a : tok_arg a <> [].
Proof. destruct a as [n|n|x]; cbn [tok_arg]; try discriminate. apply print_dec_nonempty. Qed.

Lemma tok_arg_tight a : wf_arg a = true -> trim (tok_arg a) = tok_arg a.
Proof.
  intros H. apply trim_tight; destruct a as [n|n|x]; cbn [wf_arg tok_arg] in *;
    try reflexivity.
  - apply nwl_forallb, print_dec_no_ws.
  - apply nwl_rev_forallb, print_dec_no_ws.
  - apply nwl_rev_forallb. cbn [forallb]. rewrite print_dec_no_ws. reflexivity.
  - apply andb_true_iff in H as [_ H]. cbn [rev]. rewrite nwl_app.
    destruct (rev x); [reflexivity | exact H].
Qed.

(** [arg_syn] of a rendered argument, trimmed as [fields] leaves it *)
Lemma arg_syn_tok a : wf_arg a = true -> arg_syn (trim (tok_arg a)) = Some a.
Proof.
  intros H. rewrite (tok_arg_tight _ H).
  destruct a as [m|m|x]; cbn [wf_arg tok_arg] in *.
  - destruct (print_dec_cons m) as (c & r & E & Hc & _).
    pose proof (parse_usize_print_dec m) as Hp. rewrite E in *. unfold arg_syn.
    apply is_digit_bounds in Hc.
    assert ((c =? ch_dollar)%N = false) as -> by (unfold ch_dollar; lia).
    assert ((c =? ch_nu)%N = false) as -> by (unfold ch_nu; lia).
    rewrite Hp by lia. reflexivity.
  - unfold arg_syn. change (ch_nu =? ch_dollar)%N with false.
    rewrite N.eqb_refl, parse_usize_print_dec by lia. reflexivity.
  - unfold arg_syn. rewrite N.eqb_refl. reflexivity.
Qed.

Lemma hexval_hexdigit up d : (d < 16)%N -> hexval (hexdigit up d) = Some d.
Proof. destruct up; [apply hexval_upper | apply hexval_lower]. Qed.

Lemma hexval_is_hexc c d : hexval c = Some d -> is_hexc c = true.
Proof.
  unfold hexval, is_hexc. do 3 destruct (_ && _)%bool; (reflexivity || discriminate).
Qed.

Lemma hexdigit_is_hexc up d : (d < 16)%N -> is_hexc (hexdigit up d) = true.
Proof. intros Hd. apply (hexval_is_hexc _ d), hexval_hexdigit, Hd. Qed.

Lemma hexdigit_datac up d : (d < 16)%N -> datac (hexdigit up d) = true.
Proof. intros Hd. unfold datac. rewrite (hexdigit_is_hexc _ _ Hd). apply orb_true_r. Qed.

Lemma keep_hexdigit up d : (d < 16)%N -> keep_data (hexdigit up d) = true.
Proof. intros Hd. generalize (hexdigit_is_hexc up _ Hd). unfold keep_data. by_ranges. Qed.

Lemma filter_strip_text t : strip_text t = true -> filter keep_data t = [].
Proof.
  unfold strip_text. rewrite forallb_forall. intros H. apply filter_none. intros c Hc.
  unfold keep_data. rewrite (H c Hc). reflexivity.
Qed.

Lemma strip_datac t : strip_text t = true -> forallb datac t = true.
Proof. apply forallb_impl. intros c Hc. unfold datac. rewrite Hc. reflexivity. Qed.

(** a rendered data token holds separators and hex digits, ... *)
Lemma tok_data_chars bs : forall fs e,
  forallb legal_bfmt fs = true -> strip_text e = true -> forallb wf_byte bs = true ->
  forallb datac (tok_data fs e bs) = true.
Proof.
  induction bs as [|b bs IH]; intros fs e Hfs He Hbs; cbn [tok_data]; [apply strip_datac, He|].
  cbn [forallb] in Hbs. apply andb_true_iff in Hbs as [Hb Hbs].
  destruct (byte_nibbles _ Hb) as [H1 H2].
  pose proof (forallb_hd _ bf_default _ eq_refl Hfs) as Hf.
  apply andb_true_iff in Hf as [Hs Hm].
  rewrite forallb_app, (strip_datac _ Hs). cbn [forallb]. rewrite (hexdigit_datac _ _ H1).
  rewrite forallb_app, (strip_datac _ Hm). cbn [forallb]. rewrite (hexdigit_datac _ _ H2).
  exact (IH _ _ (forallb_tl _ _ Hfs) He Hbs).
Qed.

(** ... and the digits decode to the bytes *)
Lemma hex_decode_tok_data bs : forall fs e,
  forallb legal_bfmt fs = true -> strip_text e = true -> forallb wf_byte bs = true ->
  hex_decode (filter keep_data (tok_data fs e bs)) = Some bs.
Proof.
  induction bs as [|b bs IH]; intros fs e Hfs He Hbs; cbn [tok_data].
  { rewrite (filter_strip_text _ He). reflexivity. }
  cbn [forallb] in Hbs. apply andb_true_iff in Hbs as [Hb Hbs].
  destruct (byte_nibbles _ Hb) as [H1 H2].
  pose proof (forallb_hd _ bf_default _ eq_refl Hfs) as Hf.
  apply andb_true_iff in Hf as [Hs Hm].
  rewrite filter_app, (filter_strip_text _ Hs). cbn [app filter]. rewrite (keep_hexdigit _ _ H1).
  rewrite filter_app, (filter_strip_text _ Hm). cbn [app filter]. rewrite (keep_hexdigit _ _ H2).
  apply hex_decode_byte; [apply hexval_hexdigit, H1 | apply hexval_hexdigit, H2|].
  exact (IH _ _ (forallb_tl _ _ Hfs) He Hbs).
Qed.

Lemma datac_plain t : forallb datac t = true -> plain_text t = true.
Proof. apply class_plain; reflexivity. Qed.

Lemma filter_trim_data t :
  forallb datac t = true -> filter keep_data (trim t) = filter keep_data t.
Proof.
  intros H. apply filter_trim. revert H. apply forallb_impl. intros c.
  (* a separator is filtered out; a hex digit is no white space *)
  unfold datac, keep_data.
  destruct (is_data_strip c); [intros _; apply orb_true_r | cbn [orb negb]; by_ranges].
Qed.

(** likewise for [data_syn] and a rendered data token *)
Lemma data_syn_tok fs e bs :
  forallb legal_bfmt fs = true -> strip_text e = true ->
  bs <> [] -> forallb wf_byte bs = true ->
  data_syn (trim (tok_data fs e bs)) = Some bs.
Proof.
  intros Hfs He Hne Hbs. unfold data_syn.
  rewrite (filter_trim_data _ (tok_data_chars _ _ _ Hfs He Hbs)).
  pose proof (hex_decode_tok_data _ _ _ Hfs He Hbs) as Hd.
  destruct (filter keep_data (tok_data fs e bs)); [|exact Hd].
  injection Hd as <-. congruence.
Qed.

(** the arguments of a command, each with the gaps around it *)
Definition cmd_toks (cf : cfmt) (c : cmd) : list ((gap * gap) * text) :=
  match c with
  | CAdd a => [(cf_a1 cf, tok_arg a)]
  | CBind a1 a2 l => [(cf_a1 cf, tok_arg a1); (cf_a2 cf, tok_arg a2); (cf_a3 cf, l)]
  | CPut a bs =>
      [(cf_a1 cf, tok_arg a); (cf_a2 cf, tok_data (cf_data cf) (cf_dend cf) bs)]
  end.

Lemma lay_args_toks cf c :
  lay_args cf c =
  sepby [PTok [ch_comma]] (map (fun x => lay_arg (fst x) (snd x)) (cmd_toks cf c)).
Proof. destruct c; reflexivity. Qed.

(** the text between the parentheses *)
Definition body (cf : cfmt) (c : cmd) : text := plain (lay_args cf c).

(** the command as [commands()] hands it to [deploy_one] *)
Definition core (cf : cfmt) (c : cmd) : text :=
  cmd_name c ++ repeat ch_space (cf_sp cf) ++ ch_lpar :: body cf c ++ [ch_rpar].

Lemma plain_lay_cmd cf c :
  plain (lay_cmd cf c) = gap_ws (cf_pre cf) ++ core cf c ++ gap_ws (cf_post cf).
Proof.
  unfold plain, core, body, lay_cmd. cbn [flat_map piece_plain].
  rewrite flat_map_app. cbn [flat_map piece_plain].
  rewrite app_nil_r, <- !app_assoc. cbn [app]. rewrite <- app_assoc. reflexivity.
Qed.

Lemma lay_arg_lacks x gs t :
  legal_gaps gs = true -> lacks x t = true -> forallb (piece_lacks x) (lay_arg gs t) = true.
Proof.
  unfold legal_gaps. intros Hg Ht. apply andb_true_iff in Hg as [H1 H2].
  cbn [lay_arg forallb piece_lacks]. rewrite H1, H2, Ht. reflexivity.
Qed.

Lemma trim_lay_arg gs t : legal_gaps gs = true -> trim (plain (lay_arg gs t)) = trim t.
Proof.
  unfold legal_gaps. intros Hg. apply andb_true_iff in Hg as [H1 H2].
  cbn [plain lay_arg flat_map piece_plain]. rewrite app_nil_r.
  apply trim_pad; apply gap_ws_all_ws; assumption.
Qed.

Lemma legal_cfmt_inv cf :
  legal_cfmt cf = true ->
  legal_gap (cf_pre cf) = true /\ legal_gaps (cf_a1 cf) = true /\
  legal_gaps (cf_a2 cf) = true /\ legal_gaps (cf_a3 cf) = true /\
  forallb legal_bfmt (cf_data cf) = true /\ strip_text (cf_dend cf) = true /\
  legal_gap (cf_post cf) = true.
Proof.
  unfold legal_cfmt. intros H.
  repeat (apply andb_true_iff in H as [H ?]). repeat split; assumption.
Qed.

Lemma wf_cmd_inv c :
  wf_cmd c = true ->
  match c with
  | CAdd a => wf_arg a = true
  | CBind a1 a2 l =>
      wf_arg a1 = true /\ wf_arg a2 = true /\ plain_text l = true /\ trim l = l /\ l <> []
  | CPut a bs => wf_arg a = true /\ bs <> [] /\ forallb wf_byte bs = true
  end.
Proof.
  destruct c as [a|a1 a2 l|a bs]; cbn [wf_cmd]; intros H; [exact H | |].
  - apply andb_true_iff in H as [H Hl]. apply andb_true_iff in H as [H1 H2].
    unfold wf_ltext in Hl. repeat (apply andb_true_iff in Hl as [Hl ?]).
    repeat split; [assumption.. | apply trim_tight; assumption | intros ->; discriminate].
  - apply andb_true_iff in H as [H Hbs]. apply andb_true_iff in H as [H Hne].
    repeat split; [assumption | intros ->; discriminate | assumption].
Qed.

(** every argument of a well-formed command is written between legal gaps,
    has none of the characters that end a token early, and is not blank *)
Definition good_tok (x : (gap * gap) * text) : Prop :=
  legal_gaps (fst x) = true /\ plain_text (snd x) = true /\ trim (snd x) <> [].

Lemma cmd_toks_good cf c :
  legal_cfmt cf = true -> wf_cmd c = true -> Forall good_tok (cmd_toks cf c).
Proof.
  intros Hcf Hc.
  destruct (legal_cfmt_inv _ Hcf) as (_ & Hg1 & Hg2 & Hg3 & Hd & He & _).
  assert (forall gs a, legal_gaps gs = true -> wf_arg a = true ->
            good_tok (gs, tok_arg a)) as Ha.
  { intros gs a Hgs Hwa. repeat split; [exact Hgs | apply tok_arg_plain, Hwa|].
    cbn [snd]. rewrite (tok_arg_tight _ Hwa). apply tok_arg_nonempty. }
  apply wf_cmd_inv in Hc. destruct c as [a|a1 a2 l|a bs]; cbn [cmd_toks].
  - constructor; [apply Ha; assumption | constructor].
  - destruct Hc as (Ha1 & Ha2 & Hp & Ht & Hne).
    repeat (constructor; [apply Ha; assumption|]). constructor; [|constructor].
    repeat split; [assumption..|]. cbn [snd]. rewrite Ht. exact Hne.
  - destruct Hc as (Hwa & Hne & Hbs).
    constructor; [apply Ha; assumption|]. constructor; [|constructor].
    repeat split; [assumption| |]; cbn [snd].
    + apply datac_plain, tok_data_chars; assumption.
    + intros E. pose proof (data_syn_tok _ _ _ Hd He Hne Hbs) as H.
      rewrite E in H. discriminate.
Qed.

(** a character that ends a token early occurs between the parentheses as
    [,] at most *)
Lemma lay_args_lacks x cf c :
  special x = true -> (ch_comma =? x)%N = false ->
  legal_cfmt cf = true -> wf_cmd c = true -> forallb (piece_lacks x) (lay_args cf c) = true.
Proof.
  intros Hx Hcx Hcf Hc. rewrite lay_args_toks.
  apply forallb_sepby; [cbn [forallb piece_lacks]; rewrite lacks_cons, Hcx; reflexivity|].
  apply Forall_map. generalize (cmd_toks_good _ _ Hcf Hc). apply Forall_impl.
  intros y (Hg & Hp & _). apply lay_arg_lacks; [exact Hg | exact (plain_lacks _ _ Hx Hp)].
Qed.

(** the argument list [deploy_one] works with *)
Lemma fields_body cf c :
  legal_cfmt cf = true -> wf_cmd c = true ->
  fields ch_comma (body cf c) = map (fun x => trim (snd x)) (cmd_toks cf c).
Proof.
  intros Hcf Hc. pose proof (cmd_toks_good _ _ Hcf Hc) as H.
  unfold body, plain. rewrite lay_args_toks, flat_map_sepby, map_map.
  change (flat_map piece_plain [PTok [ch_comma]]) with [ch_comma].
  rewrite fields_sepby, map_map.
  - apply map_ext_Forall. revert H. apply Forall_impl.
    intros x (Hg & _). apply trim_lay_arg, Hg.
  - apply Forall_map. revert H. apply Forall_impl.
    intros x (Hg & Hp & Hne). rewrite (trim_lay_arg _ _ Hg). split; [|exact Hne].
    apply lacks_plain, lay_arg_lacks; [reflexivity | exact Hg|].
    exact (plain_lacks ch_comma _ eq_refl Hp).
Qed.

Lemma parse_line_shape name k bd :
  name <> [] -> forallb is_upper name = true -> lacks ch_rpar bd = true ->
  parse_line (name ++ repeat ch_space k ++ ch_lpar :: bd ++ [ch_rpar]) = Some (name, bd).
Proof.
  intros Hne Hup Hbd. unfold parse_line.
  assert (match repeat ch_space k ++ ch_lpar :: bd ++ [ch_rpar] with
          | [] => true | c :: _ => negb (is_upper c) end = true) as Hhd
    by (destruct k; reflexivity).
  destruct (while_app _ _ _ Hup Hhd) as [-> ->].
  destruct name as [|c0 name']; [congruence|].
  destruct (while_app (N.eqb ch_space) (repeat ch_space k) (ch_lpar :: bd ++ [ch_rpar]))
    as [_ ->]; [apply forallb_repeat; reflexivity | reflexivity |].
  rewrite N.eqb_refl, rev_app_distr. cbn [rev app].
  rewrite N.eqb_refl, existsb_lacks, lacks_rev, Hbd, rev_involutive. reflexivity.
Qed.

Lemma cmd_name_nonempty c : cmd_name c <> [].
Proof. destruct c; discriminate. Qed.

Lemma cmd_name_upper c : forallb is_upper (cmd_name c) = true.
Proof. destruct c; reflexivity. Qed.

Lemma cmd_name_lacks x c : is_upper x = false -> lacks x (cmd_name c) = true.
Proof. intros Hx. exact (forallb_lacks is_upper x _ Hx (cmd_name_upper c)). Qed.

Lemma cmd_name_nwl c : nwl (cmd_name c) = true.
Proof. destruct c; reflexivity. Qed.

Lemma parse_line_core cf c :
  legal_cfmt cf = true -> wf_cmd c = true ->
  parse_line (core cf c) = Some (cmd_name c, body cf c).
Proof.
  intros Hcf Hc.
  apply parse_line_shape; [apply cmd_name_nonempty | apply cmd_name_upper|].
  apply lacks_plain, lay_args_lacks; auto.
Qed.

Lemma core_tight cf c : trim (core cf c) = core cf c /\ core cf c <> [].
Proof.
  pose proof (cmd_name_nonempty c) as Hne. pose proof (cmd_name_nwl c) as Hnw.
  unfold core. split; [apply trim_tight|].
  - rewrite nwl_app. destruct (cmd_name c); [congruence | exact Hnw].
  - rewrite !rev_app_distr. cbn [rev]. rewrite !rev_app_distr. cbn [rev app]. reflexivity.
  - destruct (cmd_name c); [congruence | discriminate].
Qed.

Lemma cmd_syn_core cf c :
  legal_cfmt cf = true -> wf_cmd c = true -> cmd_syn (core cf c) = Good c.
Proof.
  intros Hcf Hc. unfold cmd_syn.
  rewrite (parse_line_core _ _ Hcf Hc), (fields_body _ _ Hcf Hc). cbv zeta.
  destruct (legal_cfmt_inv _ Hcf) as (_ & _ & _ & _ & Hd & He & _).
  apply wf_cmd_inv in Hc. destruct c as [a|a1 a2 l|a bs]; cbn [cmd_toks map snd];
    cbn [cmd_name text_eqb list_eqb t_ADD t_BIND t_PUT N.eqb Pos.eqb andb].
  - rewrite (arg_syn_tok _ Hc). reflexivity.
  - destruct Hc as (Ha1 & Ha2 & _ & Ht & _).
    rewrite (arg_syn_tok _ Ha1), (arg_syn_tok _ Ha2), Ht. reflexivity.
  - destruct Hc as (Ha & Hne & Hbs).
    rewrite (arg_syn_tok _ Ha), (data_syn_tok _ _ _ Hd He Hne Hbs). reflexivity.
Qed.

Lemma deploy_one_core n vs g cf c :
  legal_cfmt cf = true -> wf_cmd c = true ->
  deploy_one n vs g (core cf c) = exec_cmd n vs g c.
Proof. intros Hcf Hc. rewrite deploy_one_syn, (cmd_syn_core _ _ Hcf Hc). reflexivity. Qed.

(** [#] and [;] are in no token of a command *)
Lemma lay_cmd_lacks x cf c :
  x = ch_hash \/ x = ch_semi -> legal_cfmt cf = true -> wf_cmd c = true ->
  forallb (piece_lacks x) (lay_cmd cf c) = true.
Proof.
  intros Hx Hcf Hc.
  destruct (legal_cfmt_inv _ Hcf) as (Hpre & _ & _ & _ & _ & _ & Hpost).
  unfold lay_cmd. cbn [forallb piece_lacks]. rewrite forallb_app. cbn [forallb piece_lacks].
  rewrite Hpre, Hpost.
  destruct Hx as [-> | ->];
    rewrite cmd_name_lacks, lay_args_lacks, lacks_repeat by (reflexivity || assumption);
    reflexivity.
Qed.

Lemma lay_cmd_field cf c :
  legal_cfmt cf = true -> wf_cmd c = true ->
  lacks ch_semi (plain (lay_cmd cf c)) = true /\ trim (plain (lay_cmd cf c)) = core cf c.
Proof.
  intros Hcf Hc. split; [apply lacks_plain, lay_cmd_lacks; auto|].
  destruct (legal_cfmt_inv _ Hcf) as (Hpre & _ & _ & _ & _ & _ & Hpost).
  rewrite plain_lay_cmd, trim_pad by (apply gap_ws_all_ws; assumption). apply core_tight.
Qed.

Lemma commands_blank rest : all_ws (strip_comments false rest) = true -> commands rest = [].
Proof.
  intros H. apply fields_none; [|apply trim_all_ws, H].
  apply (forallb_lacks is_ws ch_semi _ eq_refl H).
Qed.

Lemma commands_cons bad rest :
  lacks ch_hash bad = true -> lacks ch_semi bad = true -> trim bad <> [] ->
  commands (bad ++ ch_semi :: rest) = trim bad :: commands rest.
Proof.
  intros Hh Hs Hne. unfold commands. rewrite (strip_tok _ _ Hh).
  cbn [strip_comments]. cbn [N.eqb ch_semi ch_hash Pos.eqb andb].
  apply fields_cons; auto.
Qed.

(** the last command has its [;] if [semi] says so, every other has *)
Lemma lay_prog_cons semi fs c cs :
  lay_prog semi fs (c :: cs) =
  lay_cmd (hd cf_default fs) c
    ++ (if semi || negb (isnil cs) then [PTok [ch_semi]] else [])
    ++ lay_prog semi (tl fs) cs.
Proof. destruct cs, semi; reflexivity. Qed.

(** [commands()] splits the first rendered command off; without a final [;]
    the last command runs on into [rest], which must be blank *)
Lemma commands_lay_prog semi fs c cs rest :
  legal_cfmt (hd cf_default fs) = true -> wf_cmd c = true ->
  semi = true \/ all_ws (strip_comments false rest) = true ->
  commands (flat (lay_prog semi fs (c :: cs)) ++ rest) =
  core (hd cf_default fs) c :: commands (flat (lay_prog semi (tl fs) cs) ++ rest).
Proof.
  intros Hcf Hc Hs. destruct (lay_cmd_field _ _ Hcf Hc) as [L T].
  assert (trim (plain (lay_cmd (hd cf_default fs) c)) <> []) as Hne
    by (rewrite T; apply core_tight).
  rewrite lay_prog_cons, !flat_app_pieces, <- !app_assoc. unfold commands at 1.
  rewrite (strip_flat _ _ (lay_cmd_lacks _ _ _ (or_introl eq_refl) Hcf Hc)).
  destruct (semi || negb (isnil cs)) eqn:E.
  - change (flat [PTok [ch_semi]]) with [ch_semi]. cbn [app strip_comments].
    cbn [N.eqb ch_semi ch_hash Pos.eqb andb].
    rewrite (fields_cons _ _ _ L Hne), T. reflexivity.
  - destruct semi; [discriminate|]. destruct cs; [|discriminate].
    destruct Hs as [Hs|Hs]; [discriminate|]. cbn [lay_prog flat flat_map app].
    rewrite (commands_blank _ Hs).
    rewrite (fields_end _ _ _ L Hne (forallb_lacks is_ws ch_semi _ eq_refl Hs) Hs), T.
    reflexivity.
Qed.

(** ** The main theorem *)

(** rendered commands, then any text: the commands are executed, then the
    commands of the text (from any variable table and any position of the
    counter).  [render_cmds] is the case [semi = true]; [render] has a legal
    gap for [rest] *)
Theorem deploy_rendered n semi fs prog rest vs g pos :
  wf_prog prog = true -> forallb legal_cfmt fs = true ->
  semi = true \/ all_ws (strip_comments false rest) = true ->
  deploy_cmds n vs g (commands (flat (lay_prog semi fs prog) ++ rest)) pos =
  (r <- exec_run n vs g prog ;;
   match r with
   | SOk (vs1, g1) => deploy_cmds n vs1 g1 (commands rest) (pos + length prog)
   | SErr g' => Ok (g', None)
   end).
Proof.
  revert fs vs g pos. induction prog as [|c cs IH]; intros fs vs g pos Hp Hfs Hs.
  - cbn [lay_prog flat flat_map app exec_run obind length]. rewrite Nat.add_0_r. reflexivity.
  - cbn [wf_prog forallb] in Hp. apply andb_true_iff in Hp as [Hc Hcs].
    pose proof (forallb_hd _ cf_default _ eq_refl Hfs) as Hcf.
    rewrite (commands_lay_prog _ _ _ _ _ Hcf Hc Hs). cbn [deploy_cmds exec_run length].
    rewrite (deploy_one_core _ _ _ _ _ Hcf Hc), obind_assoc.
    apply obind_ext. intros [[vs1 g1]|g']; [|reflexivity].
    rewrite (IH _ _ _ _ Hcs (forallb_tl _ _ Hfs) Hs), Nat.add_succ_r. reflexivity.
Qed.

(** a whole script, also for a script object whose variable table is not
    empty (a second [deploy_to] of one [Script]) *)
Theorem deploy_render_vars n f prog vs g :
  wf_prog prog = true -> legal_fmt f = true ->
  deploy_cmds n vs g (commands (render f prog)) 0 = exec n vs g prog.
Proof.
  intros Hp Hf. apply andb_true_iff in Hf as [Hfs He]. unfold render, exec.
  assert (all_ws (strip_comments false (flat [PGap (f_end f)])) = true) as Hb.
  { cbn [flat flat_map piece_text]. rewrite (strip_gap _ _ He), !app_nil_r.
    apply gap_ws_all_ws, He. }
  rewrite flat_app_pieces, (deploy_rendered _ _ _ _ _ _ _ _ Hp Hfs (or_intror Hb)).
  rewrite (commands_blank _ Hb). apply obind_ext. intros [[vs1 g1]|g']; reflexivity.
Qed.

Lemma exec_run_no_err n prog : forall vs g g',
  labels_ok prog = true -> exec_run n vs g prog <> Ok (SErr g').
Proof.
  induction prog as [|c cs IH]; intros vs g g' Hl E; [discriminate|].
  change (label_ok c && labels_ok cs = true) in Hl. apply andb_true_iff in Hl as [Hc Hcs].
  cbn [exec_run] in E. apply obind_ok in E as ([[vs1 g1]|g''] & Ec & E).
  - exact (IH _ _ _ Hcs E).
  - exact (exec_cmd_no_err _ _ _ _ _ Hc Ec).
Qed.

Lemma exec_total n vs g prog g' r :
  labels_ok prog = true -> exec n vs g prog = Ok (g', r) -> r = Some (length prog).
Proof.
  unfold exec. intros Hl H. apply obind_ok in H as ([[vs1 g1]|g''] & E & [= _ <-]).
  - reflexivity.
  - destruct (exec_run_no_err _ _ _ _ _ Hl E).
Qed.

Lemma exec_returns n vs g prog :
  labels_ok prog = true -> is_ok (exec n vs g prog) = true ->
  exists g', exec n vs g prog = Ok (g', Some (length prog)).
Proof.
  intros Hl H. destruct (exec n vs g prog) as [[g' r]|k| |] eqn:E; try discriminate.
  exists g'. rewrite (exec_total _ _ _ _ _ _ Hl E). reflexivity.
Qed.

Lemma resolve_literal vs g m :
  resolve vs g (ALit m) = Ok (vs, g, clamp_id g m) /\
  resolve vs g (ANu m) = Ok (vs, g, clamp_id g m).
Proof. split; reflexivity. Qed.

Lemma var_get_cons_same vs x v : var_get ((x, v) :: vs) x = Some v.
Proof. cbn [var_get]. rewrite text_eqb_refl. reflexivity. Qed.

Lemma resolve_binds vs g x vs' g' v :
  resolve vs g (AVar x) = Ok (vs', g', v) -> var_get vs' x = Some v.
Proof.
  cbn [resolve]. destruct (var_get vs x) as [w|] eqn:E; intros H.
  - injection H as <- _ <-. exact E.
  - apply obind_ok in H as ([g1 w] & _ & [= <- _ <-]). apply var_get_cons_same.
Qed.

Lemma resolve_keeps vs g a vs' g' v y w :
  resolve vs g a = Ok (vs', g', v) -> var_get vs y = Some w -> var_get vs' y = Some w.
Proof.
  destruct a as [m|m|x]; cbn [resolve]; intros H Hy;
    [injection H as <- _ _; exact Hy.. |].
  destruct (var_get vs x) as [u|] eqn:E.
  - injection H as <- _ _. exact Hy.
  - apply obind_ok in H as ([g1 u] & _ & [= <- _ _]).
    cbn [var_get]. destruct (text_eqb x y) eqn:Exy; [|exact Hy].
    apply text_eqb_eq in Exy. congruence.
Qed.

Lemma exec_cmd_keeps n vs g c vs' g' y w :
  exec_cmd n vs g c = Ok (SOk (vs', g')) -> var_get vs y = Some w -> var_get vs' y = Some w.
Proof.
  intros H Hy. destruct c as [a|a1 a2 l|a bs]; cbn [exec_cmd] in H;
    apply obind_ok in H as ([[vs1 g1] v1] & E1 & H).
  - apply obind_ok in H as (g2 & _ & [= <- _]). eauto using resolve_keeps.
  - apply obind_ok in H as ([[vs2 g2] v2] & E2 & H).
    destruct (label_from_str l) as [lb|]; [|discriminate].
    apply obind_ok in H as (g3 & _ & [= <- _]). eauto using resolve_keeps.
  - apply obind_ok in H as (g2 & _ & [= <- _]). eauto using resolve_keeps.
Qed.

Lemma exec_run_keeps n prog : forall vs g vs' g' y w,
  exec_run n vs g prog = Ok (SOk (vs', g')) -> var_get vs y = Some w -> var_get vs' y = Some w.
Proof.
  induction prog as [|c cs IH]; intros vs g vs' g' y w H Hy; cbn [exec_run] in H.
  - injection H as <- _. exact Hy.
  - apply obind_ok in H as ([[vs1 g1]|g''] & E & H); [|discriminate].
    eauto using exec_cmd_keeps.
Qed.

(** ** The renderer and the predicates, spelled out *)

Definition cmd_text (cf : cfmt) (c : cmd) : text := flat (lay_cmd cf c).

Definition arg_text (gs : gap * gap) (t : text) : text :=
  gap_text (fst gs) ++ t ++ gap_text (snd gs).

Lemma cmd_text_shape cf c :
  cmd_text cf c =
  gap_text (cf_pre cf) ++ cmd_name c ++ repeat ch_space (cf_sp cf) ++ ch_lpar
    :: sepby [ch_comma] (map (fun x => arg_text (fst x) (snd x)) (cmd_toks cf c))
    ++ ch_rpar :: gap_text (cf_post cf).
Proof.
  unfold cmd_text, flat, lay_cmd. cbn [flat_map piece_text].
  rewrite flat_map_app, lay_args_toks, flat_map_sepby, map_map.
  cbn [flat_map piece_text]. rewrite !app_nil_r. cbn [app].
  erewrite map_ext; [reflexivity|].
  intros x. cbn [lay_arg flat_map piece_text]. rewrite app_nil_r. reflexivity.
Qed.

Lemma flat_lay_prog_cons semi fs c cs :
  flat (lay_prog semi fs (c :: cs)) =
  cmd_text (hd cf_default fs) c
    ++ (if semi || negb (isnil cs) then [ch_semi] else [])
    ++ flat (lay_prog semi (tl fs) cs).
Proof.
  rewrite lay_prog_cons, !flat_app_pieces. destruct (semi || negb (isnil cs)); reflexivity.
Qed.

Lemma render_nil f : render f [] = gap_text (f_end f).
Proof. apply app_nil_r. Qed.

Lemma render_cons f c cs :
  render f (c :: cs) =
  cmd_text (hd cf_default (f_cmds f)) c
    ++ (if f_semi f || negb (isnil cs) then [ch_semi] else [])
    ++ render (mkF (tl (f_cmds f)) (f_semi f) (f_end f)) cs.
Proof.
  unfold render. cbn [f_cmds f_semi f_end].
  rewrite !flat_app_pieces, flat_lay_prog_cons, <- !app_assoc. reflexivity.
Qed.

Lemma render_cmds_nil fs : render_cmds fs [] = [].
Proof. reflexivity. Qed.

Lemma gap_text_nil : gap_text [] = [].
Proof. reflexivity. Qed.

Lemma gap_text_ws c gp : gap_text (GWs c :: gp) = c :: gap_text gp.
Proof. reflexivity. Qed.

Lemma gap_text_com b gp : gap_text (GCom b :: gp) = ch_hash :: b ++ ch_lf :: gap_text gp.
Proof. rewrite gap_text_cons. cbn [gitem_text app]. rewrite <- app_assoc. reflexivity. Qed.

Lemma tok_data_nil fs e : tok_data fs e [] = e.
Proof. reflexivity. Qed.

Lemma tok_data_cons fs e b bs :
  tok_data fs e (b :: bs) =
  bf_sep (hd bf_default fs) ++ hexdigit (bf_up1 (hd bf_default fs)) (b / 16)
    :: bf_mid (hd bf_default fs) ++ hexdigit (bf_up2 (hd bf_default fs)) (b mod 16)
    :: tok_data (tl fs) e bs.
Proof. reflexivity. Qed.

Lemma legal_gap_spec gp :
  legal_gap gp = true <->
  forall i, In i gp ->
    match i with
    | GWs c => is_ws c = true
    | GCom b => ~ In ch_lf b
    end.
Proof.
  unfold legal_gap. rewrite forallb_forall.
  split; intros H i Hi; specialize (H i Hi); destruct i as [c|b]; cbn [legal_gitem] in *;
    try exact H; apply lacks_spec, H.
Qed.

Lemma nwl_spec t : nwl t = true <-> (forall c r, t = c :: r -> is_ws c = false).
Proof.
  destruct t as [|c t]; cbn [nwl]; split; intros H.
  - intros c r E. discriminate.
  - reflexivity.
  - intros c' r E. inversion E; subst. apply negb_true_iff, H.
  - apply negb_true_iff. eapply H. reflexivity.
Qed.

Lemma nwl_rev_spec t : nwl (rev t) = true <-> (forall c r, t = r ++ [c] -> is_ws c = false).
Proof.
  rewrite nwl_spec. split; intros H c r E.
  - apply (H c (rev r)). rewrite E, rev_app_distr. reflexivity.
  - apply (H c (rev r)). rewrite <- (rev_involutive t), E. reflexivity.
Qed.

Lemma strip_text_spec t :
  strip_text t = true <->
  forall c, In c t -> c = ch_space \/ c = ch_tab \/ c = ch_lf \/ c = ch_cr \/ c = ch_dash.
Proof.
  unfold strip_text. rewrite forallb_forall.
  split; intros H c Hc; specialize (H c Hc);
    unfold is_data_strip, ch_space, ch_tab, ch_lf, ch_cr, ch_dash in *; lia.
Qed.

(** ** Example values (for the [Example]s of P_C14.v) *)

Local Open Scope N_scope.

Definition sp (k : nat) : gap := repeat (GWs 32) k.

Definition x_nu1 : text := [957; 49].                      (* ν1 *)
Definition x_foo : text := [102; 111; 111].                (* foo *)
Definition x_privet : list N :=                            (* "привет" in UTF-8 *)
  [208; 191; 209; 128; 208; 184; 208; 178; 208; 181; 209; 130].

(** d0-bf-D1-80-d0-B8-d0-b2-d0-b5-d1-82 *)
Definition x_data_fmt : list bfmt :=
  [ mkBF [] false [] true; mkBF [45] false [] false; mkBF [45] true [] true;
    mkBF [45] true [] true; mkBF [45] false [] true; mkBF [45] true [] true;
    mkBF [45] false [] true; mkBF [45] false [] true; mkBF [45] false [] true;
    mkBF [45] false [] true; mkBF [45] false [] true; mkBF [45] true [] true ].

(** the script of the documentation of [Script] (src/lib.rs):
<<
ADD(0);
ADD($ν1); # adding new vertex
BIND(0, $ν1, foo);
PUT($ν1, d0-bf-D1-80-d0-B8-d0-b2-d0-b5-d1-82);
>> *)
Definition doc_prog : list cmd :=
  [ CAdd (ALit 0); CAdd (AVar x_nu1); CBind (ALit 0) (AVar x_nu1) x_foo;
    CPut (AVar x_nu1) x_privet ].

Definition doc_fmt : fmt :=
  mkF [ cf_default;
        mkCF [GWs 10] 0%nat ([], []) ([], []) ([], []) [] [] [];
        mkCF [GWs 32; GCom [32;97;100;100;105;110;103;32;110;101;119;32;118;101;114;116;101;120]]
             0%nat ([], []) ([GWs 32], []) ([GWs 32], []) [] [] [];
        mkCF [GWs 10] 0%nat ([], []) ([GWs 32], []) ([], []) x_data_fmt [] [] ]
      true [GWs 10].

Definition doc_text : text :=
  [65; 68; 68; 40; 48; 41; 59; 10; 65; 68; 68; 40; 36; 957; 49; 41; 59; 32; 35; 32; 97;
   100; 100; 105; 110; 103; 32; 110; 101; 119; 32; 118; 101; 114; 116; 101; 120; 10; 66;
   73; 78; 68; 40; 48; 44; 32; 36; 957; 49; 44; 32; 102; 111; 111; 41; 59; 10; 80; 85; 84;
   40; 36; 957; 49; 44; 32; 100; 48; 45; 98; 102; 45; 68; 49; 45; 56; 48; 45; 100; 48; 45;
   66; 56; 45; 100; 48; 45; 98; 50; 45; 100; 48; 45; 98; 53; 45; 100; 49; 45; 56; 50; 41;
   59; 10].

(** the script of the unit test [simple_command] of src/script.rs: leading
    and trailing blanks, [ν0], blanks before [,] and [)]
<<

        ADD(0);  ADD($ν1); # adding two vertices
        BIND(ν0, $ν1, foo  );
        PUT($ν1  , d0-bf-D1-80-d0-B8-d0-b2-d0-b5-d1-82);
        >> *)
Definition test_prog : list cmd :=
  [ CAdd (ALit 0); CAdd (AVar x_nu1); CBind (ANu 0) (AVar x_nu1) x_foo;
    CPut (AVar x_nu1) x_privet ].

Definition test_fmt : fmt :=
  mkF [ mkCF (GWs 10 :: sp 8%nat) 0%nat ([], []) ([], []) ([], []) [] [] [];
        mkCF (sp 2%nat) 0%nat ([], []) ([], []) ([], []) [] [] [];
        mkCF (GWs 32 :: GCom [32;97;100;100;105;110;103;32;116;119;111;32;118;101;114;116;105;99;101;115]
              :: sp 8%nat) 0%nat ([], []) ([GWs 32], []) ([GWs 32], sp 2%nat) [] [] [];
        mkCF (GWs 10 :: sp 8%nat) 0%nat ([], sp 2%nat) ([GWs 32], []) ([], []) x_data_fmt [] [] ]
      true (GWs 10 :: sp 8%nat).

Definition test_text : text :=
  [10; 32; 32; 32; 32; 32; 32; 32; 32; 65; 68; 68; 40; 48; 41; 59; 32; 32; 65; 68; 68; 40;
   36; 957; 49; 41; 59; 32; 35; 32; 97; 100; 100; 105; 110; 103; 32; 116; 119; 111; 32;
   118; 101; 114; 116; 105; 99; 101; 115; 10; 32; 32; 32; 32; 32; 32; 32; 32; 66; 73; 78;
   68; 40; 957; 48; 44; 32; 36; 957; 49; 44; 32; 102; 111; 111; 32; 32; 41; 59; 10; 32; 32;
   32; 32; 32; 32; 32; 32; 80; 85; 84; 40; 36; 957; 49; 32; 32; 44; 32; 100; 48; 45; 98;
   102; 45; 68; 49; 45; 56; 48; 45; 100; 48; 45; 66; 56; 45; 100; 48; 45; 98; 50; 45; 100;
   48; 45; 98; 53; 45; 100; 49; 45; 56; 50; 41; 59; 10; 32; 32; 32; 32; 32; 32; 32; 32].

(** a free format: tabs, a comment inside a command, blanks before [(], a
    no-break space, separators inside the data, no final [;]
<<
ADD  (\t7 # seven
 ) ;PUT(7,  -0 a\nFf-) >> *)
Definition odd_prog : list cmd := [ CAdd (ALit 7); CPut (ALit 7) [10; 255] ].

Definition odd_fmt : fmt :=
  mkF [ mkCF [] 2%nat ([GWs 9], [GWs 32; GCom [32;115;101;118;101;110]; GWs 32]) ([], []) ([], [])
             [] [] [GWs 32];
        mkCF [] 0%nat ([], []) ([GWs 160], []) ([], [])
             [mkBF [32; 45] true [32] false; mkBF [10] true [] false] [45] [GWs 32] ]
      false [].

Definition odd_text : text :=
  [65;68;68;32;32;40;9;55;32;35;32;115;101;118;101;110;10;32;41;32;59;
   80;85;84;40;55;44;160;32;45;48;32;97;10;70;102;45;41;32].

(** "ADD(0); ADD(x); ADD(1);": the second command is malformed *)
Definition bad_prefix : list cmd := [ CAdd (ALit 0) ].
Definition bad_cmd : text := [32; 65; 68; 68; 40; 120; 41].       (* " ADD(x)" *)
Definition bad_rest : text := [32; 65; 68; 68; 40; 49; 41; 59].   (* " ADD(1);" *)

(** "BIND($a, x, l)": fails after [$a] took an id *)
Definition bad_bind : text := [66;73;78;68;40;36;97;44;32;120;44;32;108;41].
