(** * Base: the outcome monad and the list helpers shared by the whole model,
    with the generic lemmas about them.  Nothing here is about the sodg model. *)

From Coq Require Export List Arith NArith ZArith Lia Bool.
Export ListNotations.

Set Implicit Arguments.

(** Kinds of panic of the debug build that the model distinguishes.  Only
    "panic or not" is compared with the implementation, the kind is for the
    reader and for the C07 theorems. *)
Inductive pkind :=
| PBoundary    (* emap: "The key K is over the boundary C" (debug assertion) *)
| PStackFull   (* microstack: "No more space left in the stack" *)
| PMapFull     (* micromap: "No more key-value slot available in the map" *)
| PUnderflow   (* "attempt to subtract with overflow" *)
| PUnwrapNone  (* Option::unwrap() on None *)
| PIndex       (* slice / array index or range out of bounds *)
| PAssert.     (* explicit assert! / panic! in the crate *)

(** Result of a modelled call.  [OutOfFuel] is a model artefact (a loop that
    did not finish within the fuel the model gave it); every theorem that
    mentions a fuelled function proves it unreachable.  [Unmodelled] marks the
    one code path deliberately left out of the model ([Sodg::join], reached
    only when [merge] is given a right operand that is not a tree). *)
Inductive outcome (A : Type) :=
| Ok (a : A)
| Panic (k : pkind)
| OutOfFuel
| Unmodelled.

Arguments Ok {A} a.
Arguments Panic {A} k.
Arguments OutOfFuel {A}.
Arguments Unmodelled {A}.

Definition obind {A B} (x : outcome A) (f : A -> outcome B) : outcome B :=
  match x with
  | Ok a => f a
  | Panic k => Panic k
  | OutOfFuel => OutOfFuel
  | Unmodelled => Unmodelled
  end.

Notation "x <- e ;; f" := (obind e (fun x => f))
  (at level 61, e at next level, right associativity).

Lemma obind_ok {A B} (x : outcome A) (f : A -> outcome B) (b : B) :
  obind x f = Ok b -> exists a, x = Ok a /\ f a = Ok b.
Proof. destruct x; cbn [obind]; intros H; try discriminate. eauto. Qed.

Lemma obind_ext {A B} (x : outcome A) (f h : A -> outcome B) :
  (forall a, f a = h a) -> obind x f = obind x h.
Proof. intros E. destruct x; cbn [obind]; auto. Qed.

Lemma obind_assoc {A B C} (x : outcome A) (f : A -> outcome B) (h : B -> outcome C) :
  obind (obind x f) h = obind x (fun a => obind (f a) h).
Proof. destruct x; reflexivity. Qed.

Lemma obind_fuel {A B} (x : outcome A) (f : A -> outcome B) :
  x <> OutOfFuel -> (forall a, x = Ok a -> f a <> OutOfFuel) -> obind x f <> OutOfFuel.
Proof. destruct x; cbn [obind]; intros H1 H2; try discriminate; auto. Qed.

Definition is_ok {A} (x : outcome A) : bool :=
  match x with Ok _ => true | _ => false end.

Definition is_panic {A} (x : outcome A) : bool :=
  match x with Panic _ => true | _ => false end.

(** ** list update *)

Fixpoint upd {A} (l : list A) (i : nat) (x : A) : list A :=
  match l, i with
  | [], _ => []
  | _ :: t, O => x :: t
  | h :: t, S j => h :: upd t j x
  end.

Lemma upd_length A (l : list A) i x : length (upd l i x) = length l.
Proof. revert i; induction l as [|h t IH]; intros [|j]; simpl; auto. Qed.

Lemma nth_upd_eq A (l : list A) i x d : i < length l -> nth i (upd l i x) d = x.
Proof.
  revert i; induction l as [|h t IH]; intros [|j] H; simpl in *; try lia; auto.
  apply IH; lia.
Qed.

Lemma nth_upd_neq A (l : list A) i j x d : i <> j -> nth j (upd l i x) d = nth j l d.
Proof.
  revert i j; induction l as [|h t IH]; intros [|i] [|j] H; simpl; auto; try lia.
Qed.

Lemma nth_upd A (l : list A) i j x d :
  nth j (upd l i x) d = if (Nat.eqb i j && Nat.ltb i (length l))%bool then x else nth j l d.
Proof.
  destruct (Nat.eqb_spec i j) as [->|Hne]; simpl.
  - destruct (Nat.ltb_spec j (length l)) as [Hlt|Hge].
    + apply nth_upd_eq; auto.
    + rewrite !nth_overflow; auto. rewrite upd_length; auto.
  - apply nth_upd_neq; auto.
Qed.

Lemma upd_overflow A (l : list A) i x : length l <= i -> upd l i x = l.
Proof.
  revert i; induction l as [|h t IH]; intros [|j] H; simpl in *; auto; try lia.
  f_equal; apply IH; lia.
Qed.

Lemma firstn_upd A (a : list A) k b : forall n, firstn n (upd a k b) = upd (firstn n a) k b.
Proof.
  revert k; induction a as [|x a IH]; intros k [|n]; try reflexivity.
  destruct k as [|k]; cbn [upd firstn]; [reflexivity|]. rewrite IH. reflexivity.
Qed.

(** index of the first element satisfying [p], scanning from position 0 *)
Fixpoint find_index {A} (p : A -> bool) (l : list A) : option nat :=
  match l with
  | [] => None
  | h :: t => if p h then Some 0 else option_map S (find_index p t)
  end.

Lemma find_index_some A (p : A -> bool) l i d :
  find_index p l = Some i ->
  i < length l /\ p (nth i l d) = true /\ forall j, j < i -> p (nth j l d) = false.
Proof.
  revert i; induction l as [|h t IH]; simpl; intros i H; [discriminate|].
  destruct (p h) eqn:Hp.
  - inversion H; subst. repeat split; auto; try lia; intros j Hj; lia.
  - destruct (find_index p t) as [k|] eqn:Hk; simpl in H; [|discriminate].
    inversion H; subst. destruct (IH k eq_refl) as (H1 & H2 & H3).
    repeat split; auto; try lia; intros [|j] Hj; auto; apply H3; lia.
Qed.

Lemma find_index_none A (p : A -> bool) l d :
  find_index p l = None -> forall j, j < length l -> p (nth j l d) = false.
Proof.
  induction l as [|h t IH]; simpl; intros H j Hj; [lia|].
  destruct (p h) eqn:Hp; [discriminate|].
  destruct (find_index p t); simpl in H; [discriminate|].
  destruct j; auto. apply IH; auto; lia.
Qed.

Definition isnil {A} (l : list A) : bool := match l with [] => true | _ => false end.

Fixpoint list_eqb {A} (eqb : A -> A -> bool) (l1 l2 : list A) : bool :=
  match l1, l2 with
  | [], [] => true
  | a :: t1, b :: t2 => eqb a b && list_eqb eqb t1 t2
  | _, _ => false
  end.

Lemma list_eqb_spec A (eqb : A -> A -> bool) :
  (forall a b, eqb a b = true <-> a = b) ->
  forall l1 l2, list_eqb eqb l1 l2 = true <-> l1 = l2.
Proof.
  intros H l1; induction l1 as [|a t IH]; intros [|b t2]; simpl; split; intros E;
    try discriminate; auto.
  - apply andb_true_iff in E as [E1 E2]. apply H in E1. apply IH in E2. congruence.
  - inversion E; subst. apply andb_true_iff; split; [apply H | apply IH]; auto.
Qed.

Definition mem (x : nat) (l : list nat) : bool := existsb (Nat.eqb x) l.

(** ascending list [0; 1; ...; n-1] *)
Definition iota (n : nat) : list nat := seq 0 n.

Lemma mem_In x l : mem x l = true <-> In x l.
Proof.
  unfold mem. rewrite existsb_exists. split.
  - intros (y & Hy & E). apply Nat.eqb_eq in E. subst; auto.
  - intros H. exists x. split; auto. apply Nat.eqb_refl.
Qed.

Lemma mem_false x l : mem x l = false <-> ~ In x l.
Proof. rewrite <- mem_In. destruct (mem x l); split; congruence. Qed.

Lemma mem_cons x y l : mem x (y :: l) = (x =? y) || mem x l.
Proof. reflexivity. Qed.

Lemma in_iota x n : In x (iota n) <-> x < n.
Proof. unfold iota. rewrite in_seq. lia. Qed.

Lemma mem_seq_below k s n : k < s -> mem k (seq s n) = false.
Proof. intros H. apply mem_false. rewrite in_seq. lia. Qed.

Unset Implicit Arguments.

Lemma forallb_repeat {A} (p : A -> bool) x n :
  p x = true -> forallb p (repeat x n) = true.
Proof.
  intros Hx; induction n as [|n IH]; cbn [repeat forallb]; [reflexivity|].
  rewrite Hx, IH; reflexivity.
Qed.

Lemma forallb_false {A} (p : A -> bool) l :
  forallb p l = false <-> exists x, In x l /\ p x = false.
Proof.
  induction l as [|x t IH]; cbn [forallb In].
  - split; [discriminate | intros (_ & [] & _)].
  - rewrite andb_false_iff, IH. split.
    + intros [H|(y & Hy & H)]; eauto.
    + intros (y & [->|Hy] & H); eauto.
Qed.

Lemma forallb_Forall_iff {A} (f : A -> bool) (P : A -> Prop) (l : list A) :
  (forall x, f x = true <-> P x) -> (forallb f l = true <-> Forall P l).
Proof.
  intros H. rewrite forallb_forall, Forall_forall.
  split; intros H1 x Hx; apply H; auto.
Qed.

Lemma forallb_impl {A} (p q : A -> bool) l :
  (forall c, p c = true -> q c = true) -> forallb p l = true -> forallb q l = true.
Proof. rewrite !forallb_forall. auto. Qed.

Lemma forallb_rev {A} (p : A -> bool) l : forallb p (rev l) = forallb p l.
Proof.
  induction l as [|a l IH]; [reflexivity|].
  cbn [rev forallb]. rewrite forallb_app, IH. cbn [forallb].
  rewrite andb_true_r. apply andb_comm.
Qed.

Lemma forallb_firstn_skipn {A} (p : A -> bool) n l :
  forallb p l = forallb p (firstn n l) && forallb p (skipn n l).
Proof. rewrite <- forallb_app, firstn_skipn. reflexivity. Qed.

Lemma forallb_firstn {A} (p : A -> bool) n l :
  forallb p l = true -> forallb p (firstn n l) = true.
Proof. rewrite (forallb_firstn_skipn p n l), andb_true_iff. tauto. Qed.

Lemma forallb_skipn {A} (p : A -> bool) n l :
  forallb p l = true -> forallb p (skipn n l) = true.
Proof. rewrite (forallb_firstn_skipn p n l), andb_true_iff. tauto. Qed.

Lemma forallb_hd {A} (p : A -> bool) d l :
  p d = true -> forallb p l = true -> p (hd d l) = true.
Proof.
  intros Hd. destruct l as [|a l]; [intros _; exact Hd|].
  cbn [forallb hd]. intros H. apply andb_true_iff in H. apply H.
Qed.

Lemma forallb_tl {A} (p : A -> bool) l : forallb p l = true -> forallb p (tl l) = true.
Proof. exact (forallb_skipn p 1 l). Qed.

Lemma filter_id {A} (f : A -> bool) l : (forall x, In x l -> f x = true) -> filter f l = l.
Proof.
  induction l as [|a t IH]; cbn [filter]; intros H; [reflexivity|].
  rewrite (H a) by (left; reflexivity). f_equal. apply IH. intros x Hx. apply H. right; exact Hx.
Qed.

Lemma filter_none {A} (f : A -> bool) l : (forall x, In x l -> f x = false) -> filter f l = [].
Proof.
  induction l as [|x t IH]; intros H; cbn [filter]; [reflexivity|].
  rewrite (H x) by (left; reflexivity). apply IH. intros y Hy. apply H. right; exact Hy.
Qed.

Lemma filter_seq_cut (f : nat -> bool) b c :
  b <= c -> (forall w, b <= w -> f w = false) -> filter f (seq 0 c) = filter f (seq 0 b).
Proof.
  intros Hbc Hf. replace c with (b + (c - b)) by lia. rewrite seq_app, filter_app.
  rewrite (filter_none f (seq (0 + b) (c - b))); [apply app_nil_r|].
  intros x Hx. apply in_seq in Hx. apply Hf. lia.
Qed.

Lemma filter_rev {A} (p : A -> bool) l : filter p (rev l) = rev (filter p l).
Proof.
  induction l as [|a l IH]; [reflexivity|].
  cbn [rev filter]. rewrite filter_app, IH. cbn [filter].
  destruct (p a); cbn [rev]; [reflexivity | apply app_nil_r].
Qed.

Lemma map_eq_through {A B C} (f : A -> B) (h : A -> C) :
  (forall x y, f x = f y -> h x = h y) ->
  forall l1 l2, map f l1 = map f l2 -> map h l1 = map h l2.
Proof.
  intros Hf. induction l1 as [|x l1 IH]; intros [|y l2] H; try discriminate H; [reflexivity|].
  injection H as Hx Hl. cbn [map]. f_equal; auto.
Qed.

Lemma nth_repeat_any {A} (x d : A) k i : nth i (repeat x k) d = if i <? k then x else d.
Proof.
  revert i; induction k as [|k IH]; intros [|i]; cbn [repeat nth]; auto.
  rewrite IH. reflexivity.
Qed.

Lemma nth_firstn_lt {A} (l : list A) n i d :
  i < n -> nth i (firstn n l) d = nth i l d.
Proof.
  revert n i; induction l as [|x t IH]; intros [|n] [|i] H;
    cbn [firstn nth]; try reflexivity; try lia.
  apply IH; lia.
Qed.

Lemma firstn_length_app {A} (l r : list A) : firstn (length l) (l ++ r) = l.
Proof. rewrite firstn_app, Nat.sub_diag, firstn_all. apply app_nil_r. Qed.

Lemma find_seq_least (p : nat -> bool) : forall len s id,
  find p (seq s len) = Some id -> forall w, s <= w -> w < id -> p w = false.
Proof.
  induction len as [|len IH]; intros s id F w Hw1 Hw2; simpl in F; [discriminate|].
  destruct (p s) eqn:C.
  - inversion F; subst. lia.
  - destruct (Nat.eq_dec w s) as [->|Hne]; [exact C|].
    apply (IH (S s) id F); lia.
Qed.

Lemma Forall_nth_lt {A} (P : A -> Prop) l d :
  (forall i, i < length l -> P (nth i l d)) -> Forall P l.
Proof. intros H. apply Forall_nth. intros i d' Hi. rewrite (nth_indep _ d' d Hi). auto. Qed.

Lemma nodup_app {A} (l1 l2 : list A) :
  NoDup (l1 ++ l2) <-> NoDup l1 /\ NoDup l2 /\ forall x, In x l1 -> ~ In x l2.
Proof.
  induction l1 as [|a t IH]; cbn [app].
  - split; [intros H|tauto]. repeat split; [constructor|exact H|intros x []].
  - rewrite !NoDup_cons_iff, IH, in_app_iff. cbn [In]. split.
    + intros (Ha & H1 & H2 & H3). repeat split; auto. intros x [<-|Hx]; auto.
    + intros ((Ha & H1) & H2 & H3). repeat split; auto.
      intros [H|H]; [auto|exact (H3 a (or_introl eq_refl) H)].
Qed.

Lemma nodup_snoc {A} (l : list A) a : NoDup l -> ~ In a l -> NoDup (l ++ [a]).
Proof.
  intros H Ha. apply nodup_app. split; [exact H|]. split; [constructor; [intros []|constructor]|].
  intros x Hx [<-|[]]. exact (Ha Hx).
Qed.

Lemma NoDup_map_inj {A B} (f : A -> B) (l : list A) :
  NoDup l -> (forall x y, In x l -> In y l -> f x = f y -> x = y) -> NoDup (map f l).
Proof.
  induction l as [|a t IH]; intros Hnd Hinj; cbn [map]; [constructor|].
  inversion Hnd as [|? ? Ha Ht]; subst. constructor.
  - intros H. apply in_map_iff in H as (y & Hy & Hin).
    assert (y = a) by (apply Hinj; [right; exact Hin|left; reflexivity|exact Hy]). subst. contradiction.
  - apply IH; [exact Ht|]. intros x y Hx Hy. apply Hinj; right; assumption.
Qed.

Lemma nodup_flat_map {A B} (f : A -> list B) (t : B -> A) l :
  NoDup l -> (forall a, In a l -> NoDup (f a)) ->
  (forall a x, In a l -> In x (f a) -> t x = a) ->
  NoDup (flat_map f l).
Proof.
  intros Hnd Hf Ht. induction Hnd as [|a l Ha Hl IH]; cbn [flat_map]; [constructor|].
  apply nodup_app. split; [apply Hf, in_eq|]. split.
  - apply IH; intros; [apply Hf|apply Ht]; auto using in_cons.
  - intros x Hx Hy. apply in_flat_map in Hy as (b & Hb & Hy).
    apply Ha. rewrite <- (Ht a x), (Ht b x); auto using in_eq, in_cons.
Qed.

Lemma nodup_lt_length (l : list nat) n :
  NoDup l -> (forall x, In x l -> x < n) -> length l <= n.
Proof.
  intros Hn Hl. rewrite <- (seq_length n 0). apply NoDup_incl_length; auto.
  intros x Hx. apply in_seq. specialize (Hl x Hx). lia.
Qed.

Lemma app_nonempty_l {A} (a b : list A) : a <> [] -> a ++ b <> [].
Proof. destruct a; simpl; congruence. Qed.

Lemma concat_singletons {A} (l : list A) : concat (map (fun b => [b]) l) = l.
Proof. induction l as [|b l IH]; [reflexivity|]. cbn [map concat app]. f_equal. exact IH. Qed.

Lemma flat_map_length_ge {A B} (f : A -> list B) k l :
  (forall a, In a l -> k <= length (f a)) -> k * length l <= length (flat_map f l).
Proof.
  induction l as [|a l IH]; intros H; cbn [flat_map length]; [lia|].
  rewrite app_length. pose proof (H a (in_eq a l)).
  assert (k * length l <= length (flat_map f l)) by (apply IH; auto using in_cons). lia.
Qed.

Lemma length_concat_ge {A B} (enc : A -> list B) xs :
  (forall x, enc x <> []) -> length xs <= length (concat (map enc xs)).
Proof.
  intros H. rewrite <- flat_map_concat_map, <- (Nat.mul_1_l (length xs)). apply flat_map_length_ge.
  intros a _. specialize (H a). destruct (enc a); [congruence|simpl; lia].
Qed.
