(** * C02  GC exactness: a group dies exactly when its last unread datum is read

    Property text: "Binding two ungrouped vertices forms a group, binding an
    ungrouped vertex with a grouped one adds it to that group, and binding two
    grouped vertices changes no group.  The data() call that reads the last
    unread datum held by members of a group removes all members of that group
    and nobody else within that same call, whatever the order of put,
    overwriting put, add and bind calls that led there; until then every
    member stays present.  Within the capacity limits none of these calls
    panics."  Quantifier: every finite call sequence within the capacity
    limits and with the documented preconditions; the alive set after every
    call equals the alive set of an independent reference model.

    Shape of the proof: the reference model is [sstep] of Spec.v (its grouping
    rules are restated below as theorems so that they can be read against the
    property text); the model of the code ([step] over Sodg.v, with slots,
    member stacks, unread counters, sentinels) refines it: [C02_refines].
    "Within the limits" is [within_limits], judged on the reference run. *)

From Sodg Require Import History SpecDec.

(** every call sequence within the limits runs without panic on the model of
    the code, returns the reference model's results, and leaves exactly the
    reference model's alive set; [Inv] (counter = recount etc.) holds *)
Theorem C02_refines : forall n cap os,
  within_limits n cap sinit os ->
  exists g', run n (op_empty cap) os = Ok (g', snd (srun sinit os))
             /\ op_keys g' = s_keys (fst (srun sinit os))
             /\ Inv n g'.
Proof.
  intros n cap os HW. destruct (sim_run_empty n cap os HW) as (g' & A & I & HR & C).
  exists g'. split; [exact A|]. split; [symmetry; apply keys_agree; exact HR|exact I].
Qed.
Check C02_refines : forall n cap os,
  within_limits n cap sinit os ->
  exists g', run n (op_empty cap) os = Ok (g', snd (srun sinit os))
             /\ op_keys g' = s_keys (fst (srun sinit os))
             /\ Inv n g'.
Print Assumptions C02_refines.

(** ... and the same after every single call of the sequence *)
Theorem C02_after_every_call : forall n cap os k,
  within_limits n cap sinit os ->
  exists g', run n (op_empty cap) (firstn k os) = Ok (g', snd (srun sinit (firstn k os)))
             /\ op_keys g' = s_keys (fst (srun sinit (firstn k os))).
Proof.
  intros n cap os k HW. apply (within_limits_firstn n cap sinit os k) in HW.
  destruct (C02_refines n cap _ HW) as (g' & A & B & _). eauto.
Qed.
Check C02_after_every_call : forall n cap os k,
  within_limits n cap sinit os ->
  exists g', run n (op_empty cap) (firstn k os) = Ok (g', snd (srun sinit (firstn k os)))
             /\ op_keys g' = s_keys (fst (srun sinit (firstn k os))).
Print Assumptions C02_after_every_call.

Theorem C02_step : forall n g s o,
  Inv n g -> R g s -> pre n (cap_of g) s o ->
  exists g', step n g o = Ok (g', snd (sstep s o)) /\ Inv n g' /\ R g' (fst (sstep s o)).
Proof. exact sim_step. Qed.
Check C02_step : forall n g s o,
  Inv n g -> R g s -> pre n (cap_of g) s o ->
  exists g', step n g o = Ok (g', snd (sstep s o)) /\ Inv n g' /\ R g' (fst (sstep s o)).
Print Assumptions C02_step.

(** the latent state the property's anchors name: counter = recount, member
    lists = tags, in every state the invariant holds of *)
Theorem C02_counter_exact : forall n g b,
  Inv n g -> 2 <= b -> b < 16 ->
  store g b = length (filter (is_stored g) (members g b))
  /\ NoDup (members g b)
  /\ (forall v, In v (members g b) <-> tag g v = b).
Proof.
  intros n g b HI H1 H2. split; [apply (i_cnt HI b H1 H2)|].
  split; [apply (i_nodup HI b H1 H2)|]. intros v. apply (i_mem HI b v H1 H2).
Qed.
Check C02_counter_exact : forall n g b,
  Inv n g -> 2 <= b -> b < 16 ->
  store g b = length (filter (is_stored g) (members g b))
  /\ NoDup (members g b)
  /\ (forall v, In v (members g b) <-> tag g v = b).
Print Assumptions C02_counter_exact.

(** ** the reference model's rules, to be read against the property text *)

Theorem C02_rule_bind_two_ungrouped : forall s v1 v2 a,
  s_grp s v1 = None -> s_grp s v2 = None ->
  let s' := fst (sstep s (OBind v1 v2 a)) in
  s_grp s' v1 = Some (s_fresh s) /\ s_grp s' v2 = Some (s_fresh s)
  /\ (forall w, w <> v1 -> w <> v2 -> s_grp s' w = s_grp s w).
Proof. exact spec_bind_uu. Qed.
Check C02_rule_bind_two_ungrouped : forall s v1 v2 a,
  s_grp s v1 = None -> s_grp s v2 = None ->
  let s' := fst (sstep s (OBind v1 v2 a)) in
  s_grp s' v1 = Some (s_fresh s) /\ s_grp s' v2 = Some (s_fresh s)
  /\ (forall w, w <> v1 -> w <> v2 -> s_grp s' w = s_grp s w).
Print Assumptions C02_rule_bind_two_ungrouped.

Theorem C02_rule_bind_joins_left : forall s v1 v2 a k,
  s_grp s v1 = None -> s_grp s v2 = Some k ->
  let s' := fst (sstep s (OBind v1 v2 a)) in
  s_grp s' v1 = Some k /\ (forall w, w <> v1 -> s_grp s' w = s_grp s w).
Proof. exact spec_bind_ug. Qed.
Check C02_rule_bind_joins_left : forall s v1 v2 a k,
  s_grp s v1 = None -> s_grp s v2 = Some k ->
  let s' := fst (sstep s (OBind v1 v2 a)) in
  s_grp s' v1 = Some k /\ (forall w, w <> v1 -> s_grp s' w = s_grp s w).
Print Assumptions C02_rule_bind_joins_left.

Theorem C02_rule_bind_joins_right : forall s v1 v2 a k,
  s_grp s v1 = Some k -> s_grp s v2 = None ->
  let s' := fst (sstep s (OBind v1 v2 a)) in
  s_grp s' v2 = Some k /\ (forall w, w <> v2 -> s_grp s' w = s_grp s w).
Proof. exact spec_bind_gu. Qed.
Check C02_rule_bind_joins_right : forall s v1 v2 a k,
  s_grp s v1 = Some k -> s_grp s v2 = None ->
  let s' := fst (sstep s (OBind v1 v2 a)) in
  s_grp s' v2 = Some k /\ (forall w, w <> v2 -> s_grp s' w = s_grp s w).
Print Assumptions C02_rule_bind_joins_right.

Theorem C02_rule_bind_two_grouped : forall s v1 v2 a k1 k2,
  s_grp s v1 = Some k1 -> s_grp s v2 = Some k2 ->
  forall w, s_grp (fst (sstep s (OBind v1 v2 a))) w = s_grp s w.
Proof. exact spec_bind_gg. Qed.
Check C02_rule_bind_two_grouped : forall s v1 v2 a k1 k2,
  s_grp s v1 = Some k1 -> s_grp s v2 = Some k2 ->
  forall w, s_grp (fst (sstep s (OBind v1 v2 a))) w = s_grp s w.
Print Assumptions C02_rule_bind_two_grouped.

Theorem C02_rule_bind_removes_nobody : forall s v1 v2 a w,
  s_present (fst (sstep s (OBind v1 v2 a))) w = s_present s w.
Proof. exact spec_bind_present. Qed.
Check C02_rule_bind_removes_nobody : forall s v1 v2 a w,
  s_present (fst (sstep s (OBind v1 v2 a))) w = s_present s w.
Print Assumptions C02_rule_bind_removes_nobody.

(** the read of the last unread datum of a group removes exactly its members *)
Theorem C02_rule_last_read : forall s v k w,
  s_unread s v = true -> s_grp s v = Some k ->
  (forall m, In m (group_members s k) -> m <> v -> s_unread s m = false) ->
  s_present (fst (sstep s (OData v))) w = s_present s w && negb (in_group s k w).
Proof. exact spec_data_last. Qed.
Check C02_rule_last_read : forall s v k w,
  s_unread s v = true -> s_grp s v = Some k ->
  (forall m, In m (group_members s k) -> m <> v -> s_unread s m = false) ->
  s_present (fst (sstep s (OData v))) w = s_present s w && negb (in_group s k w).
Print Assumptions C02_rule_last_read.

(** until then every member stays present *)
Theorem C02_rule_not_last_read : forall s v k w,
  s_grp s v = Some k ->
  (exists m, In m (group_members s k) /\ m <> v /\ s_unread s m = true) ->
  s_present (fst (sstep s (OData v))) w = s_present s w.
Proof. exact spec_data_keep. Qed.
Check C02_rule_not_last_read : forall s v k w,
  s_grp s v = Some k ->
  (exists m, In m (group_members s k) /\ m <> v /\ s_unread s m = true) ->
  s_present (fst (sstep s (OData v))) w = s_present s w.
Print Assumptions C02_rule_not_last_read.

Theorem C02_rule_repeated_or_empty_read : forall s v,
  s_unread s v = false -> fst (sstep s (OData v)) = s.
Proof. exact spec_data_noop. Qed.
Check C02_rule_repeated_or_empty_read : forall s v,
  s_unread s v = false -> fst (sstep s (OData v)) = s.
Print Assumptions C02_rule_repeated_or_empty_read.

(** what "member of group k" means *)
Theorem C02_def_group_members : forall s k w,
  In w (group_members s k) <-> w < s_bound s /\ s_present s w = true /\ s_grp s w = Some k.
Proof. exact group_members_spec. Qed.
Check C02_def_group_members : forall s k w,
  In w (group_members s k) <-> w < s_bound s /\ s_present s w = true /\ s_grp s w = Some k.
Print Assumptions C02_def_group_members.

(** the limits predicate is decidable: the boolean used by the correspondence
    check to judge generated histories is the predicate of the theorems *)
Theorem C02_limits_decided : forall n cap s o, preb n cap s o = true <-> pre n cap s o.
Proof. exact preb_spec. Qed.
Check C02_limits_decided : forall n cap s o, preb n cap s o = true <-> pre n cap s o.
Print Assumptions C02_limits_decided.

(** ** non-vacuity: a history with orders the tests never sample is within
    the limits; its last read collects the group *)

Definition d1 : hex := HVector [1%N; 2%N].
Definition d2 : hex := HBytes [7; 0; 0; 0; 0; 0; 0; 0]%N 1.

(** put before bind, overwrite of an unread datum, re-add of a present vertex *)
Definition ex_history : list op :=
  [OAdd 1; OAdd 2; OPut 2 d1; OBind 1 2 (Alpha 0); OPut 2 d2; OAdd 2; OPut 1 d1;
   OData 2; OKeys; OData 1; OKeys].

Example C02_example_within_limits : within_limits 2 4 sinit ex_history.
Proof. apply limitsb_ok. vm_compute. reflexivity. Qed.

Example C02_example_run :
  exists g', run 2 (op_empty 4) ex_history = Ok (g', snd (srun sinit ex_history))
             /\ snd (srun sinit ex_history)
                = [RUnit; RUnit; RUnit; RUnit; RUnit; RUnit; RUnit;
                   RData (Some d2); RKeys [1; 2]; RData (Some d1); RKeys []].
Proof. eexists. split; vm_compute; reflexivity. Qed.
