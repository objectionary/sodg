(** * SliceWeak: the theorems of C13 for a source of which only
    [src_edges_ok] is assumed (the labels of every vertex pairwise distinct and
    at most [n]: all that [rebuild] reads), not the whole invariant; [Inv] is
    still established for the result.

    The general statements are [slice_some_spec] and [slice_spec] of
    SliceFacts2.v, which ask this of the reachable vertices only.  A theorem
    [..._weak] here is the instance with the weaker hypothesis
    [src_edges_ok n g] on the source, [..._from_weak] the one with [Inv n g],
    obtained from the former by [inv_src_edges_ok].  [ex_full] is a source
    outside [Inv] that the real code reaches and that [src_edges_ok] covers. *)

From Sodg Require Import SliceFacts2.

(** the field [i_edges] of [Inv] (Inv.v), on its own; it carries no guard
    [v < cap_of g] there, so none here *)
Definition src_edges_ok (n : nat) (g : sodg) : Prop :=
  forall v, NoDup (map fst (edg g v)) /\ length (edg g v) <= n.

Lemma inv_src_edges_ok n g : Inv n g -> src_edges_ok n g.
Proof. intros HI. exact (i_edges HI). Qed.

Theorem slice_some_correct_16_weak n order p g v :
  src_edges_ok n g -> (forall l, Permutation (order l) l) -> pclosed p g v ->
  (forall rs, NoDup rs -> (forall u, In u rs -> reach p g v u) -> length rs <= 16) ->
  (forall u a, reach p g v u -> ~ In (a, u) (edg g u)) ->
  exists ng (kept : nat -> bool),
    op_slice_some n order g v p = Ok ng
    /\ Inv n ng /\ cap_of ng = cap_of g
    /\ (forall w, kept w = true <-> reach p g v w)
    /\ (forall w, tag ng w <> 0 <-> reach p g v w)
    /\ (forall w, edg ng w =
                  if kept w then filter (fun e : label * nat => kept (snd e)) (edg g w) else [])
    /\ (forall w, prs ng w = PEmpty).
Proof.
  intros Hg Ho Hc Hb Hs.
  destruct (slice_some_spec n 16 order p g v (le_n 16) (fun u _ => Hg u) Ho Hc Hb Hs)
    as (ng & A & I & C & T & (kept & K & E) & P).
  exists ng, kept. auto 10.
Qed.

(** the form of the property text: at most 14 kept vertices *)
Theorem slice_some_correct_weak n order p g v :
  src_edges_ok n g -> (forall l, Permutation (order l) l) -> pclosed p g v ->
  (forall rs, NoDup rs -> (forall u, In u rs -> reach p g v u) -> length rs <= 14) ->
  (forall u a, reach p g v u -> ~ In (a, u) (edg g u)) ->
  exists ng,
    op_slice_some n order g v p = Ok ng
    /\ Inv n ng /\ cap_of ng = cap_of g
    /\ (forall w, tag ng w <> 0 <-> reach p g v w)
    /\ (exists kept : nat -> bool,
          (forall w, kept w = true <-> reach p g v w)
          /\ forall w, edg ng w =
                       if kept w then filter (fun e : label * nat => kept (snd e)) (edg g w) else [])
    /\ (forall w, prs ng w = PEmpty).
Proof. intros Hg. apply (slice_some_spec n 14); [lia | intros u _; exact (Hg u)]. Qed.

Theorem slice_some_edges_weak n order p g v ng :
  src_edges_ok n g -> (forall l, Permutation (order l) l) -> pclosed p g v ->
  (forall rs, NoDup rs -> (forall u, In u rs -> reach p g v u) -> length rs <= 14) ->
  (forall u a, reach p g v u -> ~ In (a, u) (edg g u)) ->
  op_slice_some n order g v p = Ok ng ->
  forall w a t,
    In (a, t) (edg ng w) <-> reach p g v w /\ In (a, t) (edg g w) /\ reach p g v t.
Proof.
  intros Hg Ho Hc Hb Hs A. apply (slice_of_edges n).
  apply (slice_some_is n 14 order); auto.
Qed.

Theorem slice_some_accepted_edges_kept_weak n order p g v ng :
  src_edges_ok n g -> (forall l, Permutation (order l) l) -> pclosed p g v ->
  (forall rs, NoDup rs -> (forall u, In u rs -> reach p g v u) -> length rs <= 14) ->
  (forall u a, reach p g v u -> ~ In (a, u) (edg g u)) ->
  op_slice_some n order g v p = Ok ng ->
  forall w a t, tag ng w <> 0 -> In (a, t) (edg g w) -> p w t a = true ->
    In (a, t) (edg ng w) /\ tag ng t <> 0.
Proof.
  intros Hg Ho Hc Hb Hs A. apply (slice_of_accepted_edges_kept n p g v).
  apply (slice_some_is n 14 order); auto.
Qed.

Theorem slice_some_no_foreign_edge_weak n order p g v ng :
  src_edges_ok n g -> (forall l, Permutation (order l) l) -> pclosed p g v ->
  (forall rs, NoDup rs -> (forall u, In u rs -> reach p g v u) -> length rs <= 14) ->
  (forall u a, reach p g v u -> ~ In (a, u) (edg g u)) ->
  op_slice_some n order g v p = Ok ng ->
  forall w a t, In (a, t) (edg ng w) -> In (a, t) (edg g w) /\ tag ng w <> 0 /\ tag ng t <> 0.
Proof.
  intros Hg Ho Hc Hb Hs A. apply (slice_of_no_foreign_edge n p g v).
  apply (slice_some_is n 14 order); auto.
Qed.

Theorem slice_some_no_data_weak n order p g v ng :
  src_edges_ok n g -> (forall l, Permutation (order l) l) -> pclosed p g v ->
  (forall rs, NoDup rs -> (forall u, In u rs -> reach p g v u) -> length rs <= 14) ->
  (forall u a, reach p g v u -> ~ In (a, u) (edg g u)) ->
  op_slice_some n order g v p = Ok ng ->
  forall w, prs ng w = PEmpty /\ has_data ng w = false.
Proof.
  intros Hg Ho Hc Hb Hs A. apply (slice_of_no_data n p g v).
  apply (slice_some_is n 14 order); auto.
Qed.

Theorem slice_correct_weak n order g v :
  src_edges_ok n g -> (forall l, Permutation (order l) l) -> closed g v ->
  (forall rs, NoDup rs -> (forall u, In u rs -> reach ptrue g v u) -> length rs <= 14) ->
  (forall u a, reach ptrue g v u -> ~ In (a, u) (edg g u)) ->
  exists ng,
    op_slice n order g v = Ok ng
    /\ Inv n ng /\ cap_of ng = cap_of g
    /\ (forall w, tag ng w <> 0 <-> reach ptrue g v w)
    /\ (forall w a t, In (a, t) (edg ng w) <-> reach ptrue g v w /\ In (a, t) (edg g w))
    /\ (forall w, reach ptrue g v w -> edg ng w = edg g w)
    /\ (forall w, prs ng w = PEmpty).
Proof. intros Hg. apply slice_spec. intros u _. exact (Hg u). Qed.

(** ** a source inside [Inv] *)

Theorem slice_some_correct_16_from_weak n order p g v :
  Inv n g -> (forall l, Permutation (order l) l) -> pclosed p g v ->
  (forall rs, NoDup rs -> (forall u, In u rs -> reach p g v u) -> length rs <= 16) ->
  (forall u a, reach p g v u -> ~ In (a, u) (edg g u)) ->
  exists ng (kept : nat -> bool),
    op_slice_some n order g v p = Ok ng
    /\ Inv n ng /\ cap_of ng = cap_of g
    /\ (forall w, kept w = true <-> reach p g v w)
    /\ (forall w, tag ng w <> 0 <-> reach p g v w)
    /\ (forall w, edg ng w =
                  if kept w then filter (fun e : label * nat => kept (snd e)) (edg g w) else [])
    /\ (forall w, prs ng w = PEmpty).
Proof. intros HI. exact (slice_some_correct_16_weak n order p g v (inv_src_edges_ok n g HI)). Qed.

Theorem slice_some_correct_from_weak n order p g v :
  Inv n g -> (forall l, Permutation (order l) l) -> pclosed p g v ->
  (forall rs, NoDup rs -> (forall u, In u rs -> reach p g v u) -> length rs <= 14) ->
  (forall u a, reach p g v u -> ~ In (a, u) (edg g u)) ->
  exists ng,
    op_slice_some n order g v p = Ok ng
    /\ Inv n ng /\ cap_of ng = cap_of g
    /\ (forall w, tag ng w <> 0 <-> reach p g v w)
    /\ (exists kept : nat -> bool,
          (forall w, kept w = true <-> reach p g v w)
          /\ forall w, edg ng w =
                       if kept w then filter (fun e : label * nat => kept (snd e)) (edg g w) else [])
    /\ (forall w, prs ng w = PEmpty).
Proof. intros HI. exact (slice_some_correct_weak n order p g v (inv_src_edges_ok n g HI)). Qed.

Theorem slice_some_edges_from_weak n order p g v ng :
  Inv n g -> (forall l, Permutation (order l) l) -> pclosed p g v ->
  (forall rs, NoDup rs -> (forall u, In u rs -> reach p g v u) -> length rs <= 14) ->
  (forall u a, reach p g v u -> ~ In (a, u) (edg g u)) ->
  op_slice_some n order g v p = Ok ng ->
  forall w a t,
    In (a, t) (edg ng w) <-> reach p g v w /\ In (a, t) (edg g w) /\ reach p g v t.
Proof. intros HI. exact (slice_some_edges_weak n order p g v ng (inv_src_edges_ok n g HI)). Qed.

Theorem slice_some_accepted_edges_kept_from_weak n order p g v ng :
  Inv n g -> (forall l, Permutation (order l) l) -> pclosed p g v ->
  (forall rs, NoDup rs -> (forall u, In u rs -> reach p g v u) -> length rs <= 14) ->
  (forall u a, reach p g v u -> ~ In (a, u) (edg g u)) ->
  op_slice_some n order g v p = Ok ng ->
  forall w a t, tag ng w <> 0 -> In (a, t) (edg g w) -> p w t a = true ->
    In (a, t) (edg ng w) /\ tag ng t <> 0.
Proof. intros HI. exact (slice_some_accepted_edges_kept_weak n order p g v ng (inv_src_edges_ok n g HI)). Qed.

Theorem slice_some_no_foreign_edge_from_weak n order p g v ng :
  Inv n g -> (forall l, Permutation (order l) l) -> pclosed p g v ->
  (forall rs, NoDup rs -> (forall u, In u rs -> reach p g v u) -> length rs <= 14) ->
  (forall u a, reach p g v u -> ~ In (a, u) (edg g u)) ->
  op_slice_some n order g v p = Ok ng ->
  forall w a t, In (a, t) (edg ng w) -> In (a, t) (edg g w) /\ tag ng w <> 0 /\ tag ng t <> 0.
Proof. intros HI. exact (slice_some_no_foreign_edge_weak n order p g v ng (inv_src_edges_ok n g HI)). Qed.

Theorem slice_some_no_data_from_weak n order p g v ng :
  Inv n g -> (forall l, Permutation (order l) l) -> pclosed p g v ->
  (forall rs, NoDup rs -> (forall u, In u rs -> reach p g v u) -> length rs <= 14) ->
  (forall u a, reach p g v u -> ~ In (a, u) (edg g u)) ->
  op_slice_some n order g v p = Ok ng ->
  forall w, prs ng w = PEmpty /\ has_data ng w = false.
Proof. intros HI. exact (slice_some_no_data_weak n order p g v ng (inv_src_edges_ok n g HI)). Qed.

(** ** tests for the hypotheses, for the example *)

Fixpoint nodup_labelsb (l : list label) : bool :=
  match l with
  | [] => true
  | x :: t => negb (existsb (label_eqb x) t) && nodup_labelsb t
  end.

Lemma nodup_labelsb_spec l : nodup_labelsb l = true -> NoDup l.
Proof.
  induction l as [|x t IH]; intros H; cbn [nodup_labelsb] in H; [constructor|].
  apply andb_true_iff in H as [H1 H2]. constructor; [|apply IH; exact H2].
  intros Hin. apply negb_true_iff in H1.
  assert (E : existsb (label_eqb x) t = true).
  { apply existsb_exists. exists x. split; [exact Hin | apply label_eqb_refl]. }
  congruence.
Qed.

Definition src_edges_okb (n : nat) (g : sodg) : bool :=
  forallb (fun v => nodup_labelsb (map fst (edg g v)) && (length (edg g v) <=? n))
          (iota (cap_of g)).

Lemma src_edges_okb_spec n g : src_edges_okb n g = true -> src_edges_ok n g.
Proof.
  intros H v. destruct (Nat.lt_ge_cases v (cap_of g)) as [L|L].
  - unfold src_edges_okb in H. rewrite forallb_forall in H.
    specialize (H v (proj2 (in_iota v _) L)). apply andb_true_iff in H as [H1 H2].
    split; [apply nodup_labelsb_spec; exact H1 | apply Nat.leb_le; exact H2].
  - unfold edg. rewrite vtx_overflow by exact L. cbn. split; [constructor | lia].
Qed.

Definition closed_setb (g : sodg) (l : list nat) : bool :=
  forallb (fun u => forallb (fun e : label * nat => mem (snd e) l) (edg g u)) l.

Lemma closed_setb_reach p g v l :
  closed_setb g l = true -> In v l -> forall u, reach p g v u -> In u l.
Proof. exact (reach_in_closed_list p g v l). Qed.

Lemma closed_setb_bound p g v l k :
  closed_setb g l = true -> In v l -> length l <= k ->
  forall rs, NoDup rs -> (forall u, In u rs -> reach p g v u) -> length rs <= k.
Proof.
  intros H Hv Hk rs N Hr. eapply Nat.le_trans; [|exact Hk].
  apply NoDup_incl_length; [exact N|].
  intros u Hu. apply (closed_setb_reach p g v l H Hv). apply Hr. exact Hu.
Qed.

(** ** a source outside [Inv]: a pair bound while all 14 group slots are taken

    Fourteen pairs [add 2b; add 2b+1; bind 2b (2b+1) a0] take the group slots
    2..15.  Then [add 40; add 41; add 42; bind 40 41 a1; bind 41 42 a2]: both
    ends of each of these two [bind] calls are ungrouped and the loop over the
    group table finds no empty slot, so [ours] stays 1 (BRANCH_STATIC): the
    three vertices keep tag 1 although they have edges, and [bind] pushes its
    second end on the member list of slot 1, the sentinel slot.  The calls are
    outside [within_limits] (the model of the documented limits), but the real
    code and the model perform them without a panic.  The state breaks the
    field [i_m1] of [Inv] ([members g 1 = [0]]): slot 1 holds [0; 41; 42]. *)
Definition ex_full_calls : list op :=
  flat_map (fun b => [OAdd (2 * b); OAdd (2 * b + 1); OBind (2 * b) (2 * b + 1) (Alpha 0)]) (iota 14)
  ++ [OAdd 40; OAdd 41; OAdd 42; OBind 40 41 (Alpha 1); OBind 41 42 (Alpha 2)].

Definition ex_full : sodg := built 16 48 ex_full_calls.

(** the calls do run (no panic), and the last two are outside the limits *)
Example ex_full_runs :
  is_ok (run 16 (op_empty 48) ex_full_calls) = true
  /\ within_limitsb 16 48 sinit ex_full_calls = false
  /\ within_limitsb 16 48 sinit (firstn 45 ex_full_calls) = true.
Proof. vm_compute. repeat split. Qed.

Example ex_full_shape :
  first_empty ex_full = None
  /\ tag ex_full 40 = 1 /\ tag ex_full 41 = 1 /\ tag ex_full 42 = 1
  /\ edg ex_full 40 = [(Alpha 1, 41)] /\ edg ex_full 41 = [(Alpha 2, 42)] /\ edg ex_full 42 = []
  /\ members ex_full 1 = [0; 41; 42].
Proof. vm_compute. repeat split. Qed.

Example ex_full_not_inv : forall n, ~ Inv n ex_full.
Proof.
  intros n HI. pose proof (i_m1 HI) as H. vm_compute in H. discriminate H.
Qed.

Example ex_full_src_edges_ok : src_edges_ok 16 ex_full.
Proof. apply src_edges_okb_spec. vm_compute. reflexivity. Qed.

Example ex_full_pclosed : pclosed ptrue ex_full 40.
Proof. apply closedb_pclosed; [vm_compute; reflexivity | vm_compute; lia]. Qed.

(** every hypothesis of [slice_some_correct_weak] holds of [ex_full] (which is
    outside [Inv]), start vertex 40, identity iteration order; the slice is a
    graph inside [Inv] whose keys are 40, 41, 42 with the two edges *)
Example slice_weak_example :
  ~ Inv 16 ex_full
  /\ src_edges_ok 16 ex_full
  /\ (forall l : list nat, Permutation ((fun x => x) l) l)
  /\ pclosed ptrue ex_full 40
  /\ (forall rs, NoDup rs -> (forall u, In u rs -> reach ptrue ex_full 40 u) -> length rs <= 14)
  /\ (forall u a, reach ptrue ex_full 40 u -> ~ In (a, u) (edg ex_full u))
  /\ exists ng, op_slice 16 (fun x => x) ex_full 40 = Ok ng
       /\ Inv 16 ng
       /\ op_keys ng = [40; 41; 42]
       /\ edg ng 40 = [(Alpha 1, 41)] /\ edg ng 41 = [(Alpha 2, 42)] /\ edg ng 42 = []
       /\ tag ng 40 = 2 /\ tag ng 41 = 2 /\ tag ng 42 = 2
       /\ ng = built 16 48 [OAdd 40; OAdd 41; OBind 40 41 (Alpha 1); OAdd 42; OBind 41 42 (Alpha 2)].
Proof.
  split; [apply ex_full_not_inv|].
  split; [exact ex_full_src_edges_ok|].
  split; [intros l; apply Permutation_refl|].
  split; [exact ex_full_pclosed|].
  split; [apply (closed_setb_bound ptrue ex_full 40 [40; 41; 42]);
            [vm_compute; reflexivity | apply in_eq | cbn; lia]|].
  split; [intros u a _; apply noselfb_spec; vm_compute; reflexivity|].
  exists (built 16 48 [OAdd 40; OAdd 41; OBind 40 41 (Alpha 1); OAdd 42; OBind 41 42 (Alpha 2)]).
  split; [vm_compute; reflexivity|].
  split; [apply built_inv; vm_compute; reflexivity|].
  vm_compute. repeat split.
Qed.

Print Assumptions inv_src_edges_ok.
Print Assumptions slice_some_correct_16_weak.
Print Assumptions slice_some_correct_weak.
Print Assumptions slice_some_edges_weak.
Print Assumptions slice_some_accepted_edges_kept_weak.
Print Assumptions slice_some_no_foreign_edge_weak.
Print Assumptions slice_some_no_data_weak.
Print Assumptions slice_correct_weak.
Print Assumptions slice_some_correct_16_from_weak.
Print Assumptions slice_some_correct_from_weak.
Print Assumptions slice_some_edges_from_weak.
Print Assumptions slice_some_accepted_edges_kept_from_weak.
Print Assumptions slice_some_no_foreign_edge_from_weak.
Print Assumptions ex_full_not_inv.
Print Assumptions slice_weak_example.
