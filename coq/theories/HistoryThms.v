(** * HistoryThms: the statements of C01, C05, C06 on the model of the
    code, assembled from the simulation (Refine.v, History.v) and the facts
    about the reference model. *)

From Sodg Require Export History.
From Coq Require Import Sorted.

(** ** C01 *)

(** from any pair of related states whose groups the bind calls [E] account for *)
Theorem safety_from n g0 s0 E os o :
  Inv n g0 -> R g0 s0 -> J E s0 -> within_limits n (cap_of g0) s0 (os ++ [o]) ->
  exists g g' r,
    run n g0 os = Ok (g, snd (srun s0 os))
    /\ step n g o = Ok (g', r)
    /\ forall w, present g w = true -> present g' w = false ->
         exists v, o = OData v /\ is_stored g v = true
                   /\ linked (E ++ bind_pairs os) v w /\ endpoint (E ++ bind_pairs os) w
                   /\ (w = v \/ is_stored g w = false).
Proof.
  intros I0 R0 HJ HW. pose proof HW as HW0. apply within_limits_app in HW0 as [HW1 [Hp _]].
  destruct (sim_run n os g0 s0 I0 R0 HW1) as (g & A & I & HR & C). rewrite <- C in Hp.
  destruct (sim_step n g _ o I HR Hp) as (g' & A' & I' & HR').
  exists g, g', (snd (sstep (fst (srun s0 os)) o)). split; [exact A|]. split; [exact A'|].
  intros w P0 P1. rewrite <- (r_pres HR) in P0. rewrite <- (r_pres HR') in P1.
  destruct (spec_safety_from n _ E s0 os o HJ (r_inb R0) HW w P0 P1) as (v & -> & Uv & L & En & Uw).
  exists v. split; [reflexivity|]. cbn [pre] in Hp.
  split; [rewrite <- (r_unread HR v Hp); exact Uv|]. split; [exact L|]. split; [exact En|].
  destruct (Nat.eq_dec w v) as [->|Hne]; [left; reflexivity|right].
  (* the unread flag of w <> v is not touched by the read of v *)
  rewrite <- (r_unread HR w P0). rewrite spec_data_unread in Uw.
  apply Nat.eqb_neq in Hne. rewrite Nat.eqb_sym, Hne in Uw. exact Uw.
Qed.

Theorem safety_model n cap os o :
  within_limits n cap sinit (os ++ [o]) ->
  exists g g' r,
    run n (op_empty cap) os = Ok (g, snd (srun sinit os))
    /\ step n g o = Ok (g', r)
    /\ forall w, present g w = true -> present g' w = false ->
         exists v, o = OData v /\ is_stored g v = true
                   /\ linked (bind_pairs os) v w /\ endpoint (bind_pairs os) w
                   /\ (w = v \/ is_stored g w = false).
Proof.
  intros HW. rewrite <- (cap_empty cap) in HW.
  exact (safety_from n (op_empty cap) sinit [] os o (inv_empty n cap) (R_init cap) J_init HW).
Qed.

Theorem other_calls_remove_nothing n cap os o :
  within_limits n cap sinit (os ++ [o]) -> (forall v, o <> OData v) ->
  exists g g' r,
    run n (op_empty cap) os = Ok (g, snd (srun sinit os))
    /\ step n g o = Ok (g', r)
    /\ forall w, present g w = true -> present g' w = true.
Proof.
  intros HW Hno. destruct (safety_model n cap os o HW) as (g & g' & r & A & B & S).
  exists g, g', r. split; [exact A|]. split; [exact B|].
  intros w P0. destruct (present g' w) eqn:P1; [reflexivity|].
  destruct (S w P0 P1) as (v & -> & _). exfalso. apply (Hno v). reflexivity.
Qed.

(** ** C05 *)

Theorem next_id_fresh n g s :
  Inv n g -> R g s -> pre n (cap_of g) s ONext ->
  exists g' id, step n g ONext = Ok (g', RId id)
    /\ id < cap_of g /\ present g id = false /\ g_next g <= id /\ g_next g' = S id
    /\ (forall w, g_next g <= w -> w < id -> present g w = true).
Proof.
  intros HI HR Hp.
  destruct (sim_step n g s ONext HI HR Hp) as (g' & A & I' & HR').
  destruct (spec_next_fresh n (cap_of g) s (r_inb HR) Hp) as (id & E & A1 & A2 & A3 & A4).
  rewrite E in *. cbn [fst snd] in *. exists g', id. split; [exact A|].
  split; [exact A2|]. split; [rewrite <- (r_pres HR); exact A3|].
  split; [rewrite <- (r_alloc HR); exact A1|]. split; [rewrite <- (r_alloc HR'); reflexivity|].
  intros w W1 W2. rewrite <- (r_pres HR). apply A4; [rewrite (r_alloc HR); exact W1|exact W2].
Qed.

Theorem next_ids_never_repeat n cap os :
  within_limits n cap sinit os ->
  exists g' rs, run n (op_empty cap) os = Ok (g', rs)
    /\ StronglySorted lt (ids_of rs)
    /\ Forall (fun id => id < cap /\ id < g_next g') (ids_of rs).
Proof.
  intros HW. destruct (sim_run_empty n cap os HW) as (g' & A & I & HR & C).
  destruct (spec_ids_increasing n cap os sinit bounded_init HW) as (F & S & _).
  exists g', (snd (srun sinit os)). split; [exact A|]. split; [exact S|].
  eapply Forall_impl; [|exact F]. cbn beta. intros id (_ & X2 & X3). rewrite <- (r_alloc HR). auto.
Qed.

(** ** C06 *)

Theorem slot_available n g s :
  Inv n g -> R g s -> length (alive_groups s) < 14 ->
  exists b, first_empty g = Some b /\ 2 <= b /\ b < 16 /\ members g b = [].
Proof.
  intros HI HR Hal. destruct (free_slot n g s HI HR Hal) as (b & Hf).
  exists b. split; [exact Hf|]. apply (first_empty_group n g b HI Hf).
Qed.

Theorem cycles_model n cap os cs :
  1 <= n -> within_limits n cap sinit os ->
  length (alive_groups (fst (srun sinit os))) < 14 ->
  Forall (fun c => match c with (u, w, _, _) =>
            u <> w /\ u < cap /\ w < cap
            /\ s_present (fst (srun sinit os)) u = false
            /\ s_present (fst (srun sinit os)) w = false end) cs ->
  within_limits n cap sinit (os ++ cycles cs)
  /\ exists g0 g', run n (op_empty cap) os = Ok (g0, snd (srun sinit os))
       /\ run n (op_empty cap) (os ++ cycles cs) = Ok (g', snd (srun sinit (os ++ cycles cs)))
       /\ Inv n g'
       /\ forall x, present g' x = present g0 x.
Proof.
  intros Hn HW Hal HC. destruct (sim_run_empty n cap os HW) as (g0 & A0 & I0 & R0 & C0).
  destruct (cycles_spec n cap cs _ (r_inb R0) (r_fresh R0) Hn Hal HC) as (W2 & P2 & _).
  assert (HW' : within_limits n cap sinit (os ++ cycles cs)) by (apply within_limits_app; split; assumption).
  split; [exact HW'|].
  destruct (sim_run_empty n cap _ HW') as (g' & A' & I' & R' & C').
  exists g0, g'. split; [exact A0|]. split; [exact A'|]. split; [exact I'|].
  intros x. rewrite <- (r_pres R'), <- (r_pres R0). rewrite srun_app. cbn [fst]. apply P2.
Qed.
