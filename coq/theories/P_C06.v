(** * C06  Sustained operation: collection gives group capacity back

    "Collecting a group releases its capacity, so an unbounded number of groups
    can be created, filled, read and collected one after another.  Binding two
    ungrouped vertices forms a collectable group whenever fewer than 14 groups
    are alive, no matter how many groups have lived and died before."

    [cycles cs] is the call sequence  add u; add w; bind u w a; put w d; data w
    repeated for every (u, w, a, d) of the list [cs] -- any number of cycles,
    over any rotating choice of currently absent ids.  [C06_cycles]: after an
    arbitrary history [os] within the limits that leaves fewer than 14 groups
    alive (0 to 13 bystanders), the whole sequence [os ++ cycles cs] is within
    the limits, hence runs without panic on the model of the code (C02), every
    cycle's group is collected, and the alive set afterwards is the one before
    the cycles.  No bound on the number of cycles.
    [C06_slot_available]: in every state reachable within the limits, fewer
    than 14 alive groups means the slot search of bind() finds an empty slot
    among 2..15 (the two reserved slots are never handed out). *)

From Sodg Require Import HistoryThms.

Theorem C06_cycles :
  forall n cap os cs,
  1 <= n -> within_limits n cap sinit os ->
  length (alive_groups (fst (srun sinit os))) < 14 ->
  Forall (fun c => match c with (u, w, _, _) =>
            u <> w /\ u < cap /\ w < cap
            /\ s_present (fst (srun sinit os)) u = false
            /\ s_present (fst (srun sinit os)) w = false end) cs ->
  within_limits n cap sinit (os ++ cycles cs)
  /\ exists g0 g', run n (op_empty cap) os = Ok (g0, snd (srun sinit os))
       /\ run n (op_empty cap) (os ++ cycles cs) = Ok (g', snd (srun sinit (os ++ cycles cs)))
       /\ Inv n g'
       /\ forall x, present g' x = present g0 x.
Proof. exact cycles_model. Qed.

Check C06_cycles :
  forall n cap os cs,
  1 <= n -> within_limits n cap sinit os ->
  length (alive_groups (fst (srun sinit os))) < 14 ->
  Forall (fun c => match c with (u, w, _, _) =>
            u <> w /\ u < cap /\ w < cap
            /\ s_present (fst (srun sinit os)) u = false
            /\ s_present (fst (srun sinit os)) w = false end) cs ->
  within_limits n cap sinit (os ++ cycles cs)
  /\ exists g0 g', run n (op_empty cap) os = Ok (g0, snd (srun sinit os))
       /\ run n (op_empty cap) (os ++ cycles cs) = Ok (g', snd (srun sinit (os ++ cycles cs)))
       /\ Inv n g'
       /\ forall x, present g' x = present g0 x.
Print Assumptions C06_cycles.

Theorem C06_one_cycle :
  forall n cap s u w a d,
  bounded s -> fresh_ok s -> u <> w -> u < cap -> w < cap -> 1 <= n ->
  s_present s u = false -> s_present s w = false -> length (alive_groups s) < 14 ->
  within_limits n cap s (cycle u w a d)
  /\ (let s' := fst (srun s (cycle u w a d)) in
      bounded s' /\ fresh_ok s'
      /\ (forall x, s_present s' x = s_present s x)
      /\ (forall x, s_present s x = true -> s_grp s' x = s_grp s x)
      /\ length (alive_groups s') = length (alive_groups s))
  /\ snd (srun s (cycle u w a d)) = [RUnit; RUnit; RUnit; RUnit; RData (Some d)].
Proof. exact cycle_spec. Qed.

Check C06_one_cycle :
  forall n cap s u w a d,
  bounded s -> fresh_ok s -> u <> w -> u < cap -> w < cap -> 1 <= n ->
  s_present s u = false -> s_present s w = false -> length (alive_groups s) < 14 ->
  within_limits n cap s (cycle u w a d)
  /\ (let s' := fst (srun s (cycle u w a d)) in
      bounded s' /\ fresh_ok s'
      /\ (forall x, s_present s' x = s_present s x)
      /\ (forall x, s_present s x = true -> s_grp s' x = s_grp s x)
      /\ length (alive_groups s') = length (alive_groups s))
  /\ snd (srun s (cycle u w a d)) = [RUnit; RUnit; RUnit; RUnit; RData (Some d)].
Print Assumptions C06_one_cycle.

Theorem C06_slot_available :
  forall n g s,
  Inv n g -> R g s -> length (alive_groups s) < 14 ->
  exists b, first_empty g = Some b /\ 2 <= b /\ b < 16 /\ members g b = [].
Proof. exact slot_available. Qed.

Check C06_slot_available :
  forall n g s,
  Inv n g -> R g s -> length (alive_groups s) < 14 ->
  exists b, first_empty g = Some b /\ 2 <= b /\ b < 16 /\ members g b = [].
Print Assumptions C06_slot_available.

Theorem C06_def_alive_groups :
  forall s k,
  In k (alive_groups s) <-> exists w, w < s_bound s /\ s_present s w = true /\ s_grp s w = Some k.
Proof. exact alive_in. Qed.

Check C06_def_alive_groups :
  forall s k,
  In k (alive_groups s) <-> exists w, w < s_bound s /\ s_present s w = true /\ s_grp s w = Some k.
Print Assumptions C06_def_alive_groups.

Theorem C06_def_cycle :
  forall u w a d, cycle u w a d = [OAdd u; OAdd w; OBind u w a; OPut w d; OData w].
Proof. reflexivity. Qed.

Check C06_def_cycle :
  forall u w a d, cycle u w a d = [OAdd u; OAdd w; OBind u w a; OPut w d; OData w].
Print Assumptions C06_def_cycle.


(** non-vacuity: 6 cycles over three rotating ids next to one bystander group *)
Definition ex_bystander : list op := [OAdd 0; OAdd 1; OBind 0 1 (Alpha 0); OPut 0 (HVector [1%N])].
Definition ex_cs : list (nat * nat * label * hex) :=
  concat (repeat [(2, 3, Alpha 0, HVector [7%N]); (3, 4, Alpha 1, hex_empty); (4, 2, Greek 961, HVector [])] 2).

Example C06_example :
  length (alive_groups (fst (srun sinit ex_bystander))) = 1
  /\ length ex_cs = 6
  /\ s_keys (fst (srun sinit (ex_bystander ++ cycles ex_cs))) = [0; 1]
  /\ exists g', run 1 (op_empty 5) (ex_bystander ++ cycles ex_cs)
                = Ok (g', snd (srun sinit (ex_bystander ++ cycles ex_cs))).
Proof.
  split; [vm_compute; reflexivity|]. split; [reflexivity|]. split; [vm_compute; reflexivity|].
  eexists. vm_compute. reflexivity.
Qed.


