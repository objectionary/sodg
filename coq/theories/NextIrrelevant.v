(** * NextIrrelevant: no call except next_id() ever reads the allocator
    position.  Two graphs that differ only in [g_next] give the same answers to
    every call sequence without next_id() and stay equal up to [g_next]
    (this is the "behaves identically under any subsequent sequence of calls"
    half of C08: load(save g) is g with the allocator position reset). *)

From Sodg Require Export Effects.

Definition omap {A B} (f : A -> B) (x : outcome A) : outcome B :=
  match x with Ok a => Ok (f a) | Panic k => Panic k | OutOfFuel => OutOfFuel | Unmodelled => Unmodelled end.

Definition renext (k : nat) (g : sodg) : sodg := set_next g k.

(** [renext k] is invisible to every accessor but [g_next] and commutes with
    every setter: all by computation *)
Lemma chk_v_next g k v : chk_v (renext k g) v = chk_v g v. Proof. reflexivity. Qed.
Lemma chk_b_next g k b : chk_b (renext k g) b = chk_b g b. Proof. reflexivity. Qed.
Lemma vtx_next g k v : vtx (renext k g) v = vtx g v. Proof. reflexivity. Qed.
Lemma tag_next g k v : tag (renext k g) v = tag g v. Proof. reflexivity. Qed.
Lemma edg_next g k v : edg (renext k g) v = edg g v. Proof. reflexivity. Qed.
Lemma is_stored_next g k v : is_stored (renext k g) v = is_stored g v. Proof. reflexivity. Qed.
Lemma store_next g k b : store (renext k g) b = store g b. Proof. reflexivity. Qed.
Lemma members_next g k b : members (renext k g) b = members g b. Proof. reflexivity. Qed.
Lemma first_empty_next g k : first_empty (renext k g) = first_empty g. Proof. reflexivity. Qed.
Lemma renext_set_vtx g k v x : set_vtx (renext k g) v x = renext k (set_vtx g v x).
Proof. reflexivity. Qed.
Lemma renext_set_tag g k v b : set_tag (renext k g) v b = renext k (set_tag g v b).
Proof. reflexivity. Qed.
Lemma renext_set_edges g k v e : set_edges (renext k g) v e = renext k (set_edges g v e).
Proof. reflexivity. Qed.
Lemma renext_set_prs g k v p : set_prs (renext k g) v p = renext k (set_prs g v p).
Proof. reflexivity. Qed.
Lemma renext_set_members g k b m : set_members (renext k g) b m = renext k (set_members g b m).
Proof. reflexivity. Qed.
Lemma renext_set_store g k b x : set_store (renext k g) b x = renext k (set_store g b x).
Proof. reflexivity. Qed.

Lemma add_next g k v : op_add (renext k g) v = omap (renext k) (op_add g v).
Proof.
  unfold op_add. rewrite chk_v_next, tag_next, renext_set_vtx. destruct (chk_v g v); [|reflexivity..].
  cbn [obind]. destruct (tag g v =? BRANCH_NONE); reflexivity.
Qed.

Lemma push_member_next g k b v : push_member (renext k g) b v = omap (renext k) (push_member g b v).
Proof.
  unfold push_member. rewrite chk_b_next, members_next, renext_set_members. destruct (chk_b g b); [|reflexivity..].
  cbn [obind]. destruct (_ <? _); reflexivity.
Qed.

Lemma add_store_next g k b x : add_store (renext k g) b x = omap (renext k) (add_store g b x).
Proof.
  unfold add_store. rewrite chk_b_next, store_next, renext_set_store.
  destruct (chk_b g b); reflexivity.
Qed.

Lemma put_next g k v d : op_put (renext k g) v d = omap (renext k) (op_put g v d).
Proof.
  unfold op_put. rewrite chk_v_next, !vtx_next, renext_set_vtx. destruct (chk_v g v); [|reflexivity..].
  cbn [obind]. destruct (_ && _); [apply add_store_next|reflexivity].
Qed.

Lemma kill_next : forall ms g k, kill (renext k g) ms = omap (renext k) (kill g ms).
Proof.
  induction ms as [|m t IH]; intros g k; cbn [kill]; [reflexivity|].
  rewrite chk_v_next, renext_set_tag. destruct (chk_v g m); [apply IH|reflexivity..].
Qed.

Definition renext_fst {A} (k : nat) (r : sodg * A) : sodg * A := (renext k (fst r), snd r).

Lemma data_next g k v : op_data (renext k g) v = omap (renext_fst k) (op_data g v).
Proof.
  unfold op_data.
  rewrite chk_v_next, !vtx_next, renext_set_prs, chk_b_next, !store_next, renext_set_store,
    members_next.
  destruct (chk_v g v); cbn [obind]; [|reflexivity..].
  destruct (v_pers (vtx g v)); [reflexivity| |reflexivity].
  destruct (v_branch (vtx g v) =? BRANCH_STATIC); [reflexivity|].
  destruct (chk_b _ _); cbn [obind]; [|reflexivity..].
  destruct (_ =? 0); [reflexivity|].
  destruct (_ =? 0); [|reflexivity].
  rewrite kill_next. destruct (kill _ _); reflexivity.
Qed.

Lemma join_group_next g k t x c :
  join_group (renext k g) t x c = omap (renext k) (join_group g t x c).
Proof.
  unfold join_group. rewrite renext_set_tag, push_member_next.
  destruct (push_member _ t x); [apply add_store_next|reflexivity..].
Qed.

Lemma bind_next n g k v1 v2 a : op_bind n (renext k g) v1 v2 a = omap (renext k) (op_bind n g v1 v2 a).
Proof.
  rewrite !op_bind_nf, !chk_v_next, edg_next.
  destruct (chk_v g v1); cbn [obind]; [|reflexivity..].
  destruct (chk_v g v2); cbn [obind]; [|reflexivity..].
  destruct (mm_insert n (edg g v1) a v2) as [e'| | |]; cbn [obind]; [|reflexivity..].
  unfold bind_groups.
  rewrite renext_set_edges, !tag_next, !is_stored_next, first_empty_next.
  destruct (tag g v1 =? 1), (tag g v2 =? 1); [destruct (first_empty g)|..].
  - rewrite renext_set_members, renext_set_tag. apply join_group_next.
  - apply join_group_next.
  - apply join_group_next.
  - apply join_group_next.
  - reflexivity.
Qed.

Lemma kid_next g k v a : op_kid (renext k g) v a = op_kid g v a.
Proof. reflexivity. Qed.
Lemma kids_next g k v : op_kids (renext k g) v = op_kids g v.
Proof. reflexivity. Qed.

Theorem step_next n g k o :
  o <> ONext -> step n (renext k g) o = omap (renext_fst k) (step n g o).
Proof.
  intros Hn. destruct o as [v|v1 v2 a|v d|v| |v a|v|]; cbn [step].
  - rewrite add_next. destruct (op_add g v); reflexivity.
  - rewrite bind_next. destruct (op_bind n g v1 v2 a); reflexivity.
  - rewrite put_next. destruct (op_put g v d); reflexivity.
  - rewrite data_next. destruct (op_data g v) as [[h r]| | |]; reflexivity.
  - congruence.
  - rewrite kid_next. destruct (op_kid g v a); reflexivity.
  - rewrite kids_next. destruct (op_kids g v); reflexivity.
  - reflexivity.
Qed.

Definition no_next (os : list op) : Prop := Forall (fun o => o <> ONext) os.

Theorem run_next n : forall os g k,
  no_next os ->
  run n (renext k g) os = omap (renext_fst k) (run n g os).
Proof.
  induction os as [|o t IH]; intros g k Hn; cbn [run].
  - reflexivity.
  - inversion Hn as [|? ? Ho Ht]; subst. rewrite (step_next n g k o Ho).
    destruct (step n g o) as [[h r]| | |]; cbn [obind omap fst snd renext_fst]; try reflexivity.
    rewrite (IH h k Ht). destruct (run n h t) as [[h2 rs]| | |]; reflexivity.
Qed.

(** the reloaded graph: [decode (encode g)] is [g] with the allocator position 0 *)
Lemma reload_is_renext g : mkG (g_stores g) (g_branches g) (g_vertices g) 0 = renext 0 g.
Proof. reflexivity. Qed.
