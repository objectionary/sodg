(** * P_C14: property C14 of the sodg verification.

    "Deploying a well-formed script has exactly the effect of the
    corresponding add/bind/put calls executed in textual order, each
    $variable standing for one next_id() result throughout the script,
    whatever the whitespace, comments, ν-prefixes and hex formatting used; the
    returned count equals the number of commands.  A syntactically malformed
    command yields Err rather than a panic, after the commands before it have
    been applied."

    How the statement is set up (all definitions are in ScriptFacts.v and are
    restated below by the [C14_def_...] theorems):

    - [cmd]/[arg] is the abstract syntax of a script: [CAdd a], [CBind a1 a2 l],
      [CPut a bs] with arguments [ALit n] (a number), [ANu n] (a number written
      with the ν prefix), [AVar x] (the variable [$x]); [l] is the text of the
      label, [bs] the data bytes.
    - [exec n vs g prog] runs the API calls of [prog] directly: arguments are
      resolved left to right ([resolve]: a literal is itself, a variable is
      looked up in the table [vs] and, when absent, bound to [op_next_id]),
      then [op_add] / [op_bind n] / [op_put] is called.  No text is parsed
      except the isolated label text by [label_from_str].
    - [render f prog] is the text of the script under the formatting choices
      [f : fmt]: per command the white space / comments ([gap]) before the
      name, the number of blanks before "(", the gaps on both sides of every
      argument, per data byte the separators before it and between its two
      digits and the case of each digit, the separators after the last byte,
      the gap before ";"; for the script whether the last command has its ";"
      and the gap at the very end.
    - [wf_prog prog] restricts numbers to [usize], names and labels to texts
      that the tokenizer of script.rs leaves in one piece, data to a non-empty
      list of [u8]; [legal_fmt f] restricts gaps to Unicode white space and
      comments without LF, data separators to blank/tab/LF/CR/dash.
    - the model of [deploy_to] is [op_deploy] (Script.v): [Some count] is
      [Ok(count)], [None] is [Err].

    The main theorem [C14_deploy] is an equation of outcomes: when an API call
    panics (an id beyond the capacity, a full edge map, ...) both sides are the
    same [Panic].

    Not covered by [render] (accepted by script.rs all the same): a [+] sign or
    leading zeros in numbers, surplus arguments ("ADD(0, junk)"), empty
    arguments and empty commands ("ADD(,0);;"), comments that split a token or
    stand between the command name and "(".

    This file holds the property theorems.  The [C14_def_...] theorems unfold
    definitions; the others are lemmas of ScriptFacts.v or follow from them in
    a few lines. *)

From Sodg Require Import Script ScriptFacts.

(** ** Definitions restated *)

Theorem C14_def_resolve :
  forall vs g m x,
    resolve vs g (ALit m) = Ok (vs, g, clamp_id g m) /\
    resolve vs g (ANu m) = Ok (vs, g, clamp_id g m) /\
    (forall v, var_get vs x = Some v -> resolve vs g (AVar x) = Ok (vs, g, v)) /\
    (var_get vs x = None ->
     resolve vs g (AVar x) =
     (r <- op_next_id g ;; Ok ((x, snd r) :: vs, fst r, snd r))).
Proof.
  intros vs g m x. split; [apply resolve_literal|]. split; [apply resolve_literal|].
  cbn [resolve]. split; [intros v -> | intros ->]; reflexivity.
Qed.

Check C14_def_resolve :
  forall vs g m x,
    resolve vs g (ALit m) = Ok (vs, g, clamp_id g m) /\
    resolve vs g (ANu m) = Ok (vs, g, clamp_id g m) /\
    (forall v, var_get vs x = Some v -> resolve vs g (AVar x) = Ok (vs, g, v)) /\
    (var_get vs x = None ->
     resolve vs g (AVar x) =
     (r <- op_next_id g ;; Ok ((x, snd r) :: vs, fst r, snd r))).
Print Assumptions C14_def_resolve.

Theorem C14_def_exec_cmd :
  forall n vs g a a1 a2 l bs,
    exec_cmd n vs g (CAdd a) =
      (r <- resolve vs g a ;;
       match r with (vs1, g1, v) => g2 <- op_add g1 v ;; Ok (SOk (vs1, g2)) end) /\
    exec_cmd n vs g (CBind a1 a2 l) =
      (r1 <- resolve vs g a1 ;;
       match r1 with (vs1, g1, v1) =>
         r2 <- resolve vs1 g1 a2 ;;
         match r2 with (vs2, g2, v2) =>
           match label_from_str l with
           | Some lb => g3 <- op_bind n g2 v1 v2 lb ;; Ok (SOk (vs2, g3))
           | None => Ok (SErr g2)
           end
         end
       end) /\
    exec_cmd n vs g (CPut a bs) =
      (r <- resolve vs g a ;;
       match r with (vs1, g1, v) =>
         g2 <- op_put g1 v (from_vec bs) ;; Ok (SOk (vs1, g2))
       end).
Proof. intros. repeat split; reflexivity. Qed.

Check C14_def_exec_cmd :
  forall n vs g a a1 a2 l bs,
    exec_cmd n vs g (CAdd a) =
      (r <- resolve vs g a ;;
       match r with (vs1, g1, v) => g2 <- op_add g1 v ;; Ok (SOk (vs1, g2)) end) /\
    exec_cmd n vs g (CBind a1 a2 l) =
      (r1 <- resolve vs g a1 ;;
       match r1 with (vs1, g1, v1) =>
         r2 <- resolve vs1 g1 a2 ;;
         match r2 with (vs2, g2, v2) =>
           match label_from_str l with
           | Some lb => g3 <- op_bind n g2 v1 v2 lb ;; Ok (SOk (vs2, g3))
           | None => Ok (SErr g2)
           end
         end
       end) /\
    exec_cmd n vs g (CPut a bs) =
      (r <- resolve vs g a ;;
       match r with (vs1, g1, v) =>
         g2 <- op_put g1 v (from_vec bs) ;; Ok (SOk (vs1, g2))
       end).
Print Assumptions C14_def_exec_cmd.

Theorem C14_def_exec :
  forall n vs g c prog,
    exec_run n vs g [] = Ok (SOk (vs, g)) /\
    exec_run n vs g (c :: prog) =
      (r <- exec_cmd n vs g c ;;
       match r with
       | SOk (vs1, g1) => exec_run n vs1 g1 prog
       | SErr g' => Ok (SErr g')
       end) /\
    exec n vs g prog =
      (r <- exec_run n vs g prog ;;
       Ok (match r with
           | SOk (_, g') => (g', Some (length prog))
           | SErr g' => (g', None)
           end)).
Proof. intros. repeat split; reflexivity. Qed.

Check C14_def_exec :
  forall n vs g c prog,
    exec_run n vs g [] = Ok (SOk (vs, g)) /\
    exec_run n vs g (c :: prog) =
      (r <- exec_cmd n vs g c ;;
       match r with
       | SOk (vs1, g1) => exec_run n vs1 g1 prog
       | SErr g' => Ok (SErr g')
       end) /\
    exec n vs g prog =
      (r <- exec_run n vs g prog ;;
       Ok (match r with
           | SOk (_, g') => (g', Some (length prog))
           | SErr g' => (g', None)
           end)).
Print Assumptions C14_def_exec.

Theorem C14_def_tokens :
  forall m x,
    tok_arg (ALit m) = print_dec m /\
    tok_arg (ANu m) = ch_nu :: print_dec m /\
    tok_arg (AVar x) = ch_dollar :: x.
Proof. intros. repeat split; reflexivity. Qed.

Check C14_def_tokens :
  forall m x,
    tok_arg (ALit m) = print_dec m /\
    tok_arg (ANu m) = ch_nu :: print_dec m /\
    tok_arg (AVar x) = ch_dollar :: x.
Print Assumptions C14_def_tokens.

Theorem C14_def_gap :
  forall c b gp,
    gap_text [] = [] /\
    gap_text (GWs c :: gp) = c :: gap_text gp /\
    gap_text (GCom b :: gp) = ch_hash :: b ++ ch_lf :: gap_text gp.
Proof. intros c b gp. exact (conj gap_text_nil (conj (gap_text_ws c gp) (gap_text_com b gp))). Qed.

Check C14_def_gap :
  forall c b gp,
    gap_text [] = [] /\
    gap_text (GWs c :: gp) = c :: gap_text gp /\
    gap_text (GCom b :: gp) = ch_hash :: b ++ ch_lf :: gap_text gp.
Print Assumptions C14_def_gap.

(** data: per byte [bf_sep], first digit, [bf_mid], second digit; [e] at the end;
    [hexdigit true] is upper case, [hexdigit false] lower case *)

Theorem C14_def_data :
  forall fs e b bs,
    tok_data fs e [] = e /\
    tok_data fs e (b :: bs) =
      bf_sep (hd bf_default fs) ++ hexdigit (bf_up1 (hd bf_default fs)) (b / 16)
        :: bf_mid (hd bf_default fs) ++ hexdigit (bf_up2 (hd bf_default fs)) (b mod 16)
        :: tok_data (tl fs) e bs.
Proof. intros fs e b bs. exact (conj (tok_data_nil fs e) (tok_data_cons fs e b bs)). Qed.

Check C14_def_data :
  forall fs e b bs,
    tok_data fs e [] = e /\
    tok_data fs e (b :: bs) =
      bf_sep (hd bf_default fs) ++ hexdigit (bf_up1 (hd bf_default fs)) (b / 16)
        :: bf_mid (hd bf_default fs) ++ hexdigit (bf_up2 (hd bf_default fs)) (b mod 16)
        :: tok_data (tl fs) e bs.
Print Assumptions C14_def_data.

Theorem C14_def_hexdigit :
  forall d, hexdigit true d = hexdigit_upper d /\ hexdigit false d = hexdigit_lower d.
Proof. intros. split; reflexivity. Qed.

Check C14_def_hexdigit :
  forall d, hexdigit true d = hexdigit_upper d /\ hexdigit false d = hexdigit_lower d.
Print Assumptions C14_def_hexdigit.

Theorem C14_def_cmd_text :
  forall cf a a1 a2 l bs,
    cmd_text cf (CAdd a) =
      gap_text (cf_pre cf) ++ t_ADD ++ repeat ch_space (cf_sp cf) ++ ch_lpar
        :: arg_text (cf_a1 cf) (tok_arg a)
        ++ ch_rpar :: gap_text (cf_post cf) /\
    cmd_text cf (CBind a1 a2 l) =
      gap_text (cf_pre cf) ++ t_BIND ++ repeat ch_space (cf_sp cf) ++ ch_lpar
        :: (arg_text (cf_a1 cf) (tok_arg a1) ++ ch_comma
            :: arg_text (cf_a2 cf) (tok_arg a2) ++ ch_comma
            :: arg_text (cf_a3 cf) l)
        ++ ch_rpar :: gap_text (cf_post cf) /\
    cmd_text cf (CPut a bs) =
      gap_text (cf_pre cf) ++ t_PUT ++ repeat ch_space (cf_sp cf) ++ ch_lpar
        :: (arg_text (cf_a1 cf) (tok_arg a) ++ ch_comma
            :: arg_text (cf_a2 cf) (tok_data (cf_data cf) (cf_dend cf) bs))
        ++ ch_rpar :: gap_text (cf_post cf).
Proof. intros. rewrite !cmd_text_shape. repeat split; reflexivity. Qed.

Check C14_def_cmd_text :
  forall cf a a1 a2 l bs,
    cmd_text cf (CAdd a) =
      gap_text (cf_pre cf) ++ t_ADD ++ repeat ch_space (cf_sp cf) ++ ch_lpar
        :: arg_text (cf_a1 cf) (tok_arg a)
        ++ ch_rpar :: gap_text (cf_post cf) /\
    cmd_text cf (CBind a1 a2 l) =
      gap_text (cf_pre cf) ++ t_BIND ++ repeat ch_space (cf_sp cf) ++ ch_lpar
        :: (arg_text (cf_a1 cf) (tok_arg a1) ++ ch_comma
            :: arg_text (cf_a2 cf) (tok_arg a2) ++ ch_comma
            :: arg_text (cf_a3 cf) l)
        ++ ch_rpar :: gap_text (cf_post cf) /\
    cmd_text cf (CPut a bs) =
      gap_text (cf_pre cf) ++ t_PUT ++ repeat ch_space (cf_sp cf) ++ ch_lpar
        :: (arg_text (cf_a1 cf) (tok_arg a) ++ ch_comma
            :: arg_text (cf_a2 cf) (tok_data (cf_data cf) (cf_dend cf) bs))
        ++ ch_rpar :: gap_text (cf_post cf).
Print Assumptions C14_def_cmd_text.

Theorem C14_def_arg_text :
  forall gs t, arg_text gs t = gap_text (fst gs) ++ t ++ gap_text (snd gs).
Proof. reflexivity. Qed.

Check C14_def_arg_text :
  forall gs t, arg_text gs t = gap_text (fst gs) ++ t ++ gap_text (snd gs).
Print Assumptions C14_def_arg_text.

Theorem C14_def_render :
  forall f c c' cs,
    render f [] = gap_text (f_end f) /\
    render f [c] =
      cmd_text (hd cf_default (f_cmds f)) c
        ++ (if f_semi f then [ch_semi] else []) ++ gap_text (f_end f) /\
    render f (c :: c' :: cs) =
      cmd_text (hd cf_default (f_cmds f)) c
        ++ ch_semi :: render (mkF (tl (f_cmds f)) (f_semi f) (f_end f)) (c' :: cs).
Proof.
  intros f c c' cs. rewrite !render_cons, !render_nil. cbn [isnil negb f_end].
  rewrite orb_false_r, orb_true_r. repeat split; reflexivity.
Qed.

Check C14_def_render :
  forall f c c' cs,
    render f [] = gap_text (f_end f) /\
    render f [c] =
      cmd_text (hd cf_default (f_cmds f)) c
        ++ (if f_semi f then [ch_semi] else []) ++ gap_text (f_end f) /\
    render f (c :: c' :: cs) =
      cmd_text (hd cf_default (f_cmds f)) c
        ++ ch_semi :: render (mkF (tl (f_cmds f)) (f_semi f) (f_end f)) (c' :: cs).
Print Assumptions C14_def_render.

(** commands each followed by [;] (a script prefix) *)

Theorem C14_def_render_cmds :
  forall fs c cs,
    render_cmds fs [] = [] /\
    render_cmds fs (c :: cs) =
      cmd_text (hd cf_default fs) c ++ ch_semi :: render_cmds (tl fs) cs.
Proof. intros fs c cs. split; [apply render_cmds_nil | apply flat_lay_prog_cons]. Qed.

Check C14_def_render_cmds :
  forall fs c cs,
    render_cmds fs [] = [] /\
    render_cmds fs (c :: cs) =
      cmd_text (hd cf_default fs) c ++ ch_semi :: render_cmds (tl fs) cs.
Print Assumptions C14_def_render_cmds.

(** well-formedness.  Why each restriction is there (grammar of script.rs):
    - numbers are [usize] ([usize::from_str] rejects more);
    - [plain_text]: no [#] (STRIP_COMMENTS is applied to the whole script, a
      [#...LF] would vanish), no [;] ([commands()] splits there), no [)] (LINE
      has [[^)]*] between the parentheses and [\)$] at the end), no [,]
      (arguments are split there);
    - [nwl t] / [nwl (rev t)]: [t] does not start / end with white space (every
      argument is trimmed); a variable name follows its [$] so only its end
      matters, and it may be empty;
    - a label is not empty (empty arguments are dropped, the label would be
      missing); data has at least one byte (the DATA regex) and bytes are [u8] *)

Theorem C14_def_wf :
  forall m x a a1 a2 l bs prog,
    wf_arg (ALit m) = (m <=? usize_max)%N /\
    wf_arg (ANu m) = (m <=? usize_max)%N /\
    wf_arg (AVar x) = plain_text x && nwl (rev x) /\
    wf_ltext l = plain_text l && negb (isnil l) && nwl l && nwl (rev l) /\
    wf_cmd (CAdd a) = wf_arg a /\
    wf_cmd (CBind a1 a2 l) = wf_arg a1 && wf_arg a2 && wf_ltext l /\
    wf_cmd (CPut a bs) = wf_arg a && negb (isnil bs) && forallb wf_byte bs /\
    wf_prog prog = forallb wf_cmd prog.
Proof. intros. repeat split; reflexivity. Qed.

Check C14_def_wf :
  forall m x a a1 a2 l bs prog,
    wf_arg (ALit m) = (m <=? usize_max)%N /\
    wf_arg (ANu m) = (m <=? usize_max)%N /\
    wf_arg (AVar x) = plain_text x && nwl (rev x) /\
    wf_ltext l = plain_text l && negb (isnil l) && nwl l && nwl (rev l) /\
    wf_cmd (CAdd a) = wf_arg a /\
    wf_cmd (CBind a1 a2 l) = wf_arg a1 && wf_arg a2 && wf_ltext l /\
    wf_cmd (CPut a bs) = wf_arg a && negb (isnil bs) && forallb wf_byte bs /\
    wf_prog prog = forallb wf_cmd prog.
Print Assumptions C14_def_wf.

Theorem C14_def_plain_text :
  forall t,
    plain_text t = true <->
    ~ In ch_hash t /\ ~ In ch_comma t /\ ~ In ch_rpar t /\ ~ In ch_semi t.
Proof. exact plain_text_spec. Qed.

Check C14_def_plain_text :
  forall t,
    plain_text t = true <->
    ~ In ch_hash t /\ ~ In ch_comma t /\ ~ In ch_rpar t /\ ~ In ch_semi t.
Print Assumptions C14_def_plain_text.

Theorem C14_def_nwl :
  forall t,
    (nwl t = true <-> (forall c r, t = c :: r -> is_ws c = false)) /\
    (nwl (rev t) = true <-> (forall c r, t = r ++ [c] -> is_ws c = false)).
Proof. intros t. exact (conj (nwl_spec t) (nwl_rev_spec t)). Qed.

Check C14_def_nwl :
  forall t,
    (nwl t = true <-> (forall c r, t = c :: r -> is_ws c = false)) /\
    (nwl (rev t) = true <-> (forall c r, t = r ++ [c] -> is_ws c = false)).
Print Assumptions C14_def_nwl.

Theorem C14_def_legal :
  forall f cf bf,
    legal_fmt f = forallb legal_cfmt (f_cmds f) && legal_gap (f_end f) /\
    legal_cfmt cf =
      legal_gap (cf_pre cf) && legal_gaps (cf_a1 cf) && legal_gaps (cf_a2 cf)
      && legal_gaps (cf_a3 cf) && forallb legal_bfmt (cf_data cf)
      && strip_text (cf_dend cf) && legal_gap (cf_post cf) /\
    legal_bfmt bf = strip_text (bf_sep bf) && strip_text (bf_mid bf).
Proof. intros. repeat split; reflexivity. Qed.

Check C14_def_legal :
  forall f cf bf,
    legal_fmt f = forallb legal_cfmt (f_cmds f) && legal_gap (f_end f) /\
    legal_cfmt cf =
      legal_gap (cf_pre cf) && legal_gaps (cf_a1 cf) && legal_gaps (cf_a2 cf)
      && legal_gaps (cf_a3 cf) && forallb legal_bfmt (cf_data cf)
      && strip_text (cf_dend cf) && legal_gap (cf_post cf) /\
    legal_bfmt bf = strip_text (bf_sep bf) && strip_text (bf_mid bf).
Print Assumptions C14_def_legal.

Theorem C14_def_legal_gaps :
  forall gs, legal_gaps gs = legal_gap (fst gs) && legal_gap (snd gs).
Proof. reflexivity. Qed.

Check C14_def_legal_gaps :
  forall gs, legal_gaps gs = legal_gap (fst gs) && legal_gap (snd gs).
Print Assumptions C14_def_legal_gaps.

(** a gap: any Unicode white space, comments without LF *)

Theorem C14_def_legal_gap :
  forall gp,
    legal_gap gp = true <->
    forall i, In i gp ->
      match i with
      | GWs c => is_ws c = true
      | GCom b => ~ In ch_lf b
      end.
Proof. exact legal_gap_spec. Qed.

Check C14_def_legal_gap :
  forall gp,
    legal_gap gp = true <->
    forall i, In i gp ->
      match i with
      | GWs c => is_ws c = true
      | GCom b => ~ In ch_lf b
      end.
Print Assumptions C14_def_legal_gap.

(** separators inside data (the DATA_STRIP regex) *)

Theorem C14_def_strip_text :
  forall t,
    strip_text t = true <->
    forall c, In c t -> c = ch_space \/ c = ch_tab \/ c = ch_lf \/ c = ch_cr \/ c = ch_dash.
Proof. exact strip_text_spec. Qed.

Check C14_def_strip_text :
  forall t,
    strip_text t = true <->
    forall c, In c t -> c = ch_space \/ c = ch_tab \/ c = ch_lf \/ c = ch_cr \/ c = ch_dash.
Print Assumptions C14_def_strip_text.

(** every label of the script is accepted by [Label::from_str] *)

Theorem C14_def_labels_ok :
  forall prog,
    labels_ok prog =
    forallb (fun c => match c with
                      | CBind _ _ l =>
                          match label_from_str l with Some _ => true | None => false end
                      | _ => true
                      end) prog.
Proof. reflexivity. Qed.

Check C14_def_labels_ok :
  forall prog,
    labels_ok prog =
    forallb (fun c => match c with
                      | CBind _ _ l =>
                          match label_from_str l with Some _ => true | None => false end
                      | _ => true
                      end) prog.
Print Assumptions C14_def_labels_ok.

(** ** The property

    deploying the text = running the API calls, whatever the format *)

Theorem C14_deploy :
  forall n f prog g,
    wf_prog prog = true -> legal_fmt f = true ->
    op_deploy n g (render f prog) = exec n [] g prog.
Proof. intros n f prog g. exact (deploy_render_vars n f prog [] g). Qed.

Check C14_deploy :
  forall n f prog g,
    wf_prog prog = true -> legal_fmt f = true ->
    op_deploy n g (render f prog) = exec n [] g prog.
Print Assumptions C14_deploy.

(** the same from any variable table ([Script] keeps its table between two
    [deploy_to] calls; [op_deploy] is the first call) *)

Theorem C14_deploy_vars :
  forall n f prog vs g,
    wf_prog prog = true -> legal_fmt f = true ->
    deploy_cmds n vs g (commands (render f prog)) 0 = exec n vs g prog.
Proof. exact deploy_render_vars. Qed.

Check C14_deploy_vars :
  forall n f prog vs g,
    wf_prog prog = true -> legal_fmt f = true ->
    deploy_cmds n vs g (commands (render f prog)) 0 = exec n vs g prog.
Print Assumptions C14_deploy_vars.

Theorem C14_count :
  forall n vs g prog g' c,
    exec n vs g prog = Ok (g', Some c) -> c = length prog.
Proof.
  unfold exec. intros n vs g prog g' c H.
  apply obind_ok in H as ([[vs1 g1]|g''] & _ & [= _ <-]). reflexivity.
Qed.

Check C14_count :
  forall n vs g prog g' c,
    exec n vs g prog = Ok (g', Some c) -> c = length prog.
Print Assumptions C14_count.

(** with valid labels the interpreter never yields [Err] (nor, by [C14_deploy], does
    a well-formed script) *)

Theorem C14_no_err :
  forall n vs g prog g' r,
    labels_ok prog = true ->
    exec n vs g prog = Ok (g', r) -> r = Some (length prog).
Proof. exact exec_total. Qed.

Check C14_no_err :
  forall n vs g prog g' r,
    labels_ok prog = true ->
    exec n vs g prog = Ok (g', r) -> r = Some (length prog).
Print Assumptions C14_no_err.

Theorem C14_deploy_count :
  forall n f prog g g' r,
    wf_prog prog = true -> legal_fmt f = true -> labels_ok prog = true ->
    op_deploy n g (render f prog) = Ok (g', r) -> r = Some (length prog).
Proof.
  intros n f prog g g' r Hp Hf Hl. rewrite (C14_deploy n f prog g Hp Hf).
  apply C14_no_err, Hl.
Qed.

Check C14_deploy_count :
  forall n f prog g g' r,
    wf_prog prog = true -> legal_fmt f = true -> labels_ok prog = true ->
    op_deploy n g (render f prog) = Ok (g', r) -> r = Some (length prog).
Print Assumptions C14_deploy_count.

(** each variable stands for one [next_id()] result: once resolved it is in the
    table, later occurrences give the same id without touching the graph, and
    no table entry ever changes *)

Theorem C14_variable_once :
  forall vs g x vs' g' v,
    resolve vs g (AVar x) = Ok (vs', g', v) ->
    var_get vs' x = Some v /\
    (forall g2, resolve vs' g2 (AVar x) = Ok (vs', g2, v)).
Proof.
  intros vs g x vs' g' v H. pose proof (resolve_binds _ _ _ _ _ _ H) as Hb.
  split; [exact Hb|]. intros g2. cbn [resolve]. rewrite Hb. reflexivity.
Qed.

Check C14_variable_once :
  forall vs g x vs' g' v,
    resolve vs g (AVar x) = Ok (vs', g', v) ->
    var_get vs' x = Some v /\
    (forall g2, resolve vs' g2 (AVar x) = Ok (vs', g2, v)).
Print Assumptions C14_variable_once.

Theorem C14_variables_kept :
  forall n prog vs g vs' g' y w,
    exec_run n vs g prog = Ok (SOk (vs', g')) ->
    var_get vs y = Some w -> var_get vs' y = Some w.
Proof. exact exec_run_keeps. Qed.

Check C14_variables_kept :
  forall n prog vs g vs' g' y w,
    exec_run n vs g prog = Ok (SOk (vs', g')) ->
    var_get vs y = Some w -> var_get vs' y = Some w.
Print Assumptions C14_variables_kept.

(** ** Malformed commands

    [syntax_ok c]: the command matches the LINE regex, its name is ADD, BIND or
    PUT, it has enough arguments and each of them parses *)

Theorem C14_def_syntax_ok :
  forall c,
    syntax_ok c =
    match parse_line c with
    | None => false
    | Some (name, raw) =>
        let args := fields ch_comma raw in
        if text_eqb name t_ADD then
          match args with
          | a1 :: _ => arg_ok a1
          | [] => false
          end
        else if text_eqb name t_BIND then
          match args with
          | a1 :: a2 :: a3 :: _ => arg_ok a1 && arg_ok a2 && is_some (label_from_str a3)
          | _ => false
          end
        else if text_eqb name t_PUT then
          match args with
          | a1 :: a2 :: _ => arg_ok a1 && is_some (parse_data a2)
          | _ => false
          end
        else false
    end.
Proof. reflexivity. Qed.

Check C14_def_syntax_ok :
  forall c,
    syntax_ok c =
    match parse_line c with
    | None => false
    | Some (name, raw) =>
        let args := fields ch_comma raw in
        if text_eqb name t_ADD then
          match args with
          | a1 :: _ => arg_ok a1
          | [] => false
          end
        else if text_eqb name t_BIND then
          match args with
          | a1 :: a2 :: a3 :: _ => arg_ok a1 && arg_ok a2 && is_some (label_from_str a3)
          | _ => false
          end
        else if text_eqb name t_PUT then
          match args with
          | a1 :: a2 :: _ => arg_ok a1 && is_some (parse_data a2)
          | _ => false
          end
        else false
    end.
Print Assumptions C14_def_syntax_ok.

Theorem C14_def_arg_ok :
  forall s,
    arg_ok s =
    match s with
    | [] => false
    | h :: t =>
        if (h =? ch_dollar)%N then true
        else if (h =? ch_nu)%N then is_some (parse_usize t)
        else is_some (parse_usize s)
    end.
Proof. reflexivity. Qed.

Check C14_def_arg_ok :
  forall s,
    arg_ok s =
    match s with
    | [] => false
    | h :: t =>
        if (h =? ch_dollar)%N then true
        else if (h =? ch_nu)%N then is_some (parse_usize t)
        else is_some (parse_usize s)
    end.
Print Assumptions C14_def_arg_ok.

Theorem C14_def_allocated :
  forall g g',
    allocated g g' <->
    g' = g \/
    (exists v, op_next_id g = Ok (g', v)) \/
    (exists g1 v1 v2, op_next_id g = Ok (g1, v1) /\ op_next_id g1 = Ok (g', v2)).
Proof. reflexivity. Qed.

Check C14_def_allocated :
  forall g g',
    allocated g g' <->
    g' = g \/
    (exists v, op_next_id g = Ok (g', v)) \/
    (exists g1 v1 v2, op_next_id g = Ok (g1, v1) /\ op_next_id g1 = Ok (g', v2)).
Print Assumptions C14_def_allocated.

Theorem C14_def_api_panic :
  forall n k,
    api_panic n k <->
    (exists g1, op_next_id g1 = Panic k) \/
    (exists g1 v, op_add g1 v = Panic k) \/
    (exists g1 v1 v2 l, op_bind n g1 v1 v2 l = Panic k) \/
    (exists g1 v d, op_put g1 v d = Panic k).
Proof. reflexivity. Qed.

Check C14_def_api_panic :
  forall n k,
    api_panic n k <->
    (exists g1, op_next_id g1 = Panic k) \/
    (exists g1 v, op_add g1 v = Panic k) \/
    (exists g1 v1 v2 l, op_bind n g1 v1 v2 l = Panic k) \/
    (exists g1 v d, op_put g1 v d = Panic k).
Print Assumptions C14_def_api_panic.

(** [deploy_one] gives [Err] only for a malformed command, and then the graph
    is untouched but for the allocator *)

Theorem C14_step_err :
  forall n vs g c g',
    deploy_one n vs g c = Ok (SErr g') -> syntax_ok c = false /\ allocated g g' .
Proof.
  intros n vs g c g' H. pose proof (deploy_one_spec n vs g c) as S.
  rewrite H in S. exact S.
Qed.

Check C14_step_err :
  forall n vs g c g',
    deploy_one n vs g c = Ok (SErr g') -> syntax_ok c = false /\ allocated g g' .
Print Assumptions C14_step_err.

Theorem C14_step_ok :
  forall n vs g c x,
    deploy_one n vs g c = Ok (SOk x) -> syntax_ok c = true.
Proof.
  intros n vs g c x H. pose proof (deploy_one_spec n vs g c) as S.
  rewrite H in S. exact S.
Qed.

Check C14_step_ok :
  forall n vs g c x,
    deploy_one n vs g c = Ok (SOk x) -> syntax_ok c = true.
Print Assumptions C14_step_ok.

(** a malformed command gives [Err]; the one panic possible is that of the
    [next_id()] of a [$variable] standing before the malformed part (the graph
    is full), which the Rust code performs before it looks further *)

Theorem C14_step_malformed :
  forall n vs g c,
    syntax_ok c = false ->
    (exists g', deploy_one n vs g c = Ok (SErr g') /\ allocated g g') \/
    (exists k g1, deploy_one n vs g c = Panic k /\ op_next_id g1 = Panic k).
Proof. exact deploy_one_bad. Qed.

Check C14_step_malformed :
  forall n vs g c,
    syntax_ok c = false ->
    (exists g', deploy_one n vs g c = Ok (SErr g') /\ allocated g g') \/
    (exists k g1, deploy_one n vs g c = Panic k /\ op_next_id g1 = Panic k).
Print Assumptions C14_step_malformed.

Theorem C14_step_wellformed :
  forall n vs g c,
    syntax_ok c = true ->
    (exists x, deploy_one n vs g c = Ok (SOk x)) \/
    (exists k, deploy_one n vs g c = Panic k /\ api_panic n k).
Proof. exact deploy_one_good. Qed.

Check C14_step_wellformed :
  forall n vs g c,
    syntax_ok c = true ->
    (exists x, deploy_one n vs g c = Ok (SOk x)) \/
    (exists k, deploy_one n vs g c = Panic k /\ api_panic n k).
Print Assumptions C14_step_wellformed.

(** whatever the text: [deploy_to] panics only where an API call panics, and
    the model has no artefact outcome *)

Theorem C14_panic_only_api :
  forall n g s k, op_deploy n g s = Panic k -> api_panic n k.
Proof.
  intros n g s k H. pose proof (deploy_cmds_spec n (commands s) [] g 0) as S.
  unfold op_deploy in H. rewrite H in S. exact S.
Qed.

Check C14_panic_only_api :
  forall n g s k, op_deploy n g s = Panic k -> api_panic n k.
Print Assumptions C14_panic_only_api.

Theorem C14_no_artefact :
  forall n g s, op_deploy n g s <> OutOfFuel /\ op_deploy n g s <> Unmodelled.
Proof.
  intros n g s. pose proof (deploy_cmds_spec n (commands s) [] g 0) as S.
  split; intros E; unfold op_deploy in E; rewrite E in S; exact S.
Qed.

Check C14_no_artefact :
  forall n g s, op_deploy n g s <> OutOfFuel /\ op_deploy n g s <> Unmodelled.
Print Assumptions C14_no_artefact.

(** the loop stops at the first [Err] with the commands before it applied *)

Theorem C14_malformed_cmds :
  forall n vs g cs1 c cs2 pos vs1 g1 g',
    run_cmds n vs g cs1 = Ok (SOk (vs1, g1)) ->
    deploy_one n vs1 g1 c = Ok (SErr g') ->
    deploy_cmds n vs g (cs1 ++ c :: cs2) pos = Ok (g', None).
Proof.
  intros n vs g cs1 c cs2 pos vs1 g1 g' H1 H2. rewrite deploy_cmds_app, H1.
  cbn [obind deploy_cmds]. rewrite H2. reflexivity.
Qed.

Check C14_malformed_cmds :
  forall n vs g cs1 c cs2 pos vs1 g1 g',
    run_cmds n vs g cs1 = Ok (SOk (vs1, g1)) ->
    deploy_one n vs1 g1 c = Ok (SErr g') ->
    deploy_cmds n vs g (cs1 ++ c :: cs2) pos = Ok (g', None).
Print Assumptions C14_malformed_cmds.

Theorem C14_def_run_cmds :
  forall n vs g c cs,
    run_cmds n vs g [] = Ok (SOk (vs, g)) /\
    run_cmds n vs g (c :: cs) =
      (r <- deploy_one n vs g c ;;
       match r with
       | SOk (vs1, g1) => run_cmds n vs1 g1 cs
       | SErr g' => Ok (SErr g')
       end).
Proof. intros. split; reflexivity. Qed.

Check C14_def_run_cmds :
  forall n vs g c cs,
    run_cmds n vs g [] = Ok (SOk (vs, g)) /\
    run_cmds n vs g (c :: cs) =
      (r <- deploy_one n vs g c ;;
       match r with
       | SOk (vs1, g1) => run_cmds n vs1 g1 cs
       | SErr g' => Ok (SErr g')
       end).
Print Assumptions C14_def_run_cmds.

(** a well-formed prefix followed by any text: the prefix is executed, then
    the commands of the rest *)

Theorem C14_prefix :
  forall n fs prog rest g,
    wf_prog prog = true -> forallb legal_cfmt fs = true ->
    op_deploy n g (render_cmds fs prog ++ rest) =
    (r <- exec_run n [] g prog ;;
     match r with
     | SOk (vs1, g1) => deploy_cmds n vs1 g1 (commands rest) (length prog)
     | SErr g' => Ok (g', None)
     end).
Proof.
  intros n fs prog rest g Hp Hfs.
  exact (deploy_rendered n true fs prog rest [] g 0 Hp Hfs (or_introl eq_refl)).
Qed.

Check C14_prefix :
  forall n fs prog rest g,
    wf_prog prog = true -> forallb legal_cfmt fs = true ->
    op_deploy n g (render_cmds fs prog ++ rest) =
    (r <- exec_run n [] g prog ;;
     match r with
     | SOk (vs1, g1) => deploy_cmds n vs1 g1 (commands rest) (length prog)
     | SErr g' => Ok (g', None)
     end).
Print Assumptions C14_prefix.

(** a script whose first [length prog] commands are well formed and run to
    [g1], and whose next command [bad] is malformed: [Err], with the graph [g1]
    (allocator possibly advanced); whatever follows is not looked at *)

Theorem C14_malformed :
  forall n fs prog bad rest g vs1 g1,
    wf_prog prog = true -> forallb legal_cfmt fs = true ->
    lacks ch_hash bad = true -> lacks ch_semi bad = true -> trim bad <> [] ->
    syntax_ok (trim bad) = false ->
    exec_run n [] g prog = Ok (SOk (vs1, g1)) ->
    (exists g',
        op_deploy n g (render_cmds fs prog ++ bad ++ ch_semi :: rest) = Ok (g', None)
        /\ allocated g1 g') \/
    (exists k g2,
        op_deploy n g (render_cmds fs prog ++ bad ++ ch_semi :: rest) = Panic k
        /\ op_next_id g2 = Panic k).
Proof.
  intros n fs prog bad rest g vs1 g1 Hp Hfs Hh Hs Hne Hbad Hrun.
  rewrite (C14_prefix _ _ _ _ _ Hp Hfs), Hrun. cbn [obind].
  rewrite (commands_cons _ _ Hh Hs Hne). cbn [deploy_cmds].
  destruct (C14_step_malformed n vs1 g1 (trim bad) Hbad) as [(g' & E & Ha)|(k & g2 & E & Hk)];
    rewrite E; cbn [obind].
  - left. exists g'. split; [reflexivity | exact Ha].
  - right. exists k, g2. split; [reflexivity | exact Hk].
Qed.

Check C14_malformed :
  forall n fs prog bad rest g vs1 g1,
    wf_prog prog = true -> forallb legal_cfmt fs = true ->
    lacks ch_hash bad = true -> lacks ch_semi bad = true -> trim bad <> [] ->
    syntax_ok (trim bad) = false ->
    exec_run n [] g prog = Ok (SOk (vs1, g1)) ->
    (exists g',
        op_deploy n g (render_cmds fs prog ++ bad ++ ch_semi :: rest) = Ok (g', None)
        /\ allocated g1 g') \/
    (exists k g2,
        op_deploy n g (render_cmds fs prog ++ bad ++ ch_semi :: rest) = Panic k
        /\ op_next_id g2 = Panic k).
Print Assumptions C14_malformed.

Theorem C14_def_lacks :
  forall x t, lacks x t = true <-> ~ In x t.
Proof. exact lacks_spec. Qed.

Check C14_def_lacks :
  forall x t, lacks x t = true <-> ~ In x t.
Print Assumptions C14_def_lacks.


(** ** Examples

    [doc_prog]/[doc_fmt]/[doc_text]: the script of the documentation of
    [Script] in src/lib.rs; [test_prog]/[test_fmt]/[test_text]: the script of
    the unit test [simple_command] of src/script.rs (ν0, blanks before "," and
    ")"); [odd_prog]/[odd_fmt]/[odd_text]: a deliberately odd format; all
    defined at the end of ScriptFacts.v. *)

(** the hypotheses of [C14_deploy] are satisfiable, and [render] produces
    exactly the documented text *)

Example ex_doc_wf : wf_prog doc_prog = true.
Proof. vm_compute. reflexivity. Qed.

Example ex_doc_labels : labels_ok doc_prog = true.
Proof. vm_compute. reflexivity. Qed.

Example ex_doc_legal : legal_fmt doc_fmt = true.
Proof. vm_compute. reflexivity. Qed.

Example ex_doc_render : render doc_fmt doc_prog = doc_text.
Proof. vm_compute. reflexivity. Qed.

(** so, by [C14_deploy], deploying it on [Sodg::<16>::empty(256)] is what
    [exec] says, ... *)
Example ex_doc_exec :
  op_deploy 16 (op_empty 256) doc_text = exec 16 [] (op_empty 256) doc_prog.
Proof. rewrite <- ex_doc_render. exact (C14_deploy _ _ _ _ ex_doc_wf ex_doc_legal). Qed.

(** ... which returns, no API call panicking, hence returns 4, ... *)
Example ex_doc_count :
  exists g', op_deploy 16 (op_empty 256) doc_text = Ok (g', Some 4).
Proof.
  rewrite ex_doc_exec. apply (exec_returns _ _ _ _ ex_doc_labels). vm_compute. reflexivity.
Qed.

(** ... and the model run on the text gives the graph of add(0), add(1),
    bind(0,1,foo), put(1,..) with 1 = next_id() *)
Example ex_doc_calls :
  op_deploy 16 (op_empty 256) doc_text =
  (g1 <- op_add (op_empty 256) 0 ;;
   r <- op_next_id g1 ;;
   g2 <- op_add (fst r) (snd r) ;;
   g3 <- op_bind 16 g2 0 (snd r) (LStr [102; 111; 111; 32; 32; 32; 32; 32]%N) ;;
   g4 <- op_put g3 (snd r) (from_vec x_privet) ;;
   Ok (g4, Some 4)).
Proof. vm_compute. reflexivity. Qed.

Example ex_test_hyps :
  wf_prog test_prog = true /\ labels_ok test_prog = true /\ legal_fmt test_fmt = true /\
  render test_fmt test_prog = test_text.
Proof. vm_compute. repeat split; reflexivity. Qed.

Example ex_test_count :
  exists g', op_deploy 16 (op_empty 256) test_text = Ok (g', Some 4).
Proof.
  destruct ex_test_hyps as (Hw & Hl & Hf & <-). rewrite (C14_deploy _ _ _ _ Hw Hf).
  apply (exec_returns _ _ _ _ Hl). vm_compute. reflexivity.
Qed.

(** the two formats of the same commands (ν0 for 0 apart) give the same
    graph: [ANu 0] and [ALit 0] resolve alike, on any graph *)
Example ex_doc_test_same :
  op_deploy 16 (op_empty 256) test_text = op_deploy 16 (op_empty 256) doc_text.
Proof.
  assert (forall g, exec 16 [] g test_prog = exec 16 [] g doc_prog) as E by reflexivity.
  destruct ex_test_hyps as (Hw & _ & Hf & <-).
  rewrite (C14_deploy _ _ _ _ Hw Hf), ex_doc_exec. apply E.
Qed.

(** tabs, a comment inside a command, blanks before "(", a no-break space,
    separators inside the data, no final ";" *)
Example ex_odd_hyps :
  wf_prog odd_prog = true /\ legal_fmt odd_fmt = true /\
  render odd_fmt odd_prog = odd_text.
Proof. vm_compute. repeat split; reflexivity. Qed.

Example ex_odd_calls :
  op_deploy 16 (op_empty 256) odd_text =
  (g1 <- op_add (op_empty 256) 7 ;;
   g2 <- op_put g1 7 (from_vec [10; 255]%N) ;;
   Ok (g2, Some 2)).
Proof. vm_compute. reflexivity. Qed.

(** the equation covers panics: an id beyond the capacity *)
Example ex_panic_both :
  op_deploy 16 (op_empty 4) odd_text = Panic PBoundary /\
  exec 16 [] (op_empty 4) odd_prog = Panic PBoundary.
Proof. vm_compute. split; reflexivity. Qed.

(** a label that [Label::from_str] rejects: [Err] on both sides *)
Example ex_bad_label :
  let prog := [CBind (ALit 0) (ALit 0) [97; 98; 99; 100; 101; 102; 103; 104; 105]%N] in
  wf_prog prog = true /\ labels_ok prog = false /\
  op_deploy 16 (op_empty 4) (render (mkF [] true []) prog) = Ok (op_empty 4, None).
Proof. vm_compute. repeat split; reflexivity. Qed.

(** [C14_malformed]: "ADD(0); ADD(x); ADD(1);" *)
Example ex_malformed_hyps :
  wf_prog bad_prefix = true /\ lacks ch_hash bad_cmd = true /\
  lacks ch_semi bad_cmd = true /\ trim bad_cmd <> [] /\
  syntax_ok (trim bad_cmd) = false /\
  exists vs1 g1, exec_run 16 [] (op_empty 4) bad_prefix = Ok (SOk (vs1, g1)).
Proof.
  repeat split; try (vm_compute; reflexivity).
  - vm_compute. discriminate.
  - do 2 eexists. vm_compute. reflexivity.
Qed.

Example ex_malformed_result :
  op_deploy 16 (op_empty 4) (render_cmds [] bad_prefix ++ bad_cmd ++ ch_semi :: bad_rest) =
  (g1 <- op_add (op_empty 4) 0 ;; Ok (g1, None)).
Proof. vm_compute. reflexivity. Qed.

(** "BIND($a, x, l)": [Err], and [$a] has taken an id *)
Example ex_malformed_alloc :
  syntax_ok bad_bind = false /\
  deploy_one 16 [] (op_empty 4) bad_bind = Ok (SErr (set_next (op_empty 4) 1)) /\
  op_next_id (op_empty 4) = Ok (set_next (op_empty 4) 1, 0).
Proof. vm_compute. repeat split; reflexivity. Qed.

(** ... and on a graph without room the allocation panics, as in Rust *)
Example ex_malformed_panic :
  deploy_one 16 [] (op_empty 0) bad_bind = Panic PUnwrapNone /\
  op_next_id (op_empty 0) = Panic PUnwrapNone.
Proof. vm_compute. split; reflexivity. Qed.
