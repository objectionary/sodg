(** * Shape: no call ever changes the capacity of the vertex store nor the
    sizes of the two group tables (unconditional facts about the model). *)

From Sodg Require Export Effects.

Definition same_shape (g g' : sodg) : Prop :=
  cap_of g' = cap_of g /\ nb g' = nb g /\ ns g' = ns g.

Lemma same_shape_refl g : same_shape g g.
Proof. repeat split. Qed.

Lemma sev_shape g g' : same_except_vertices g g' -> same_shape g g'.
Proof. intros []. repeat split; assumption. Qed.

(** Whatever a call other than [next_id] returns has been built by setters
    other than [set_next].  The lemmas on the parts of a call carry a state
    [g0] along, so that they compose by [apply]. *)

Lemma add_store_sev g0 g b k g' :
  same_except_vertices g0 g -> add_store g b k = Ok g' -> same_except_vertices g0 g'.
Proof. intros H0 H. apply add_store_inv in H as ->. apply sev_store, H0. Qed.

Lemma join_group_sev g0 g t x k g' :
  same_except_vertices g0 g -> join_group g t x k = Ok g' -> same_except_vertices g0 g'.
Proof.
  intros H0 H. apply obind_ok in H as (g1 & P & H). apply push_member_inv in P as ->.
  revert H. apply add_store_sev, sev_members, sev_vtx, H0.
Qed.

Lemma kill_sev : forall ms g0 g g',
  same_except_vertices g0 g -> kill g ms = Ok g' -> same_except_vertices g0 g'.
Proof.
  induction ms as [|m t IH]; intros g0 g g' H0; cbn [kill].
  - intros [= <-]. exact H0.
  - destruct (chk_v g m); cbn [obind]; try discriminate. apply IH, sev_vtx, H0.
Qed.

Lemma op_add_shape g v g' : op_add g v = Ok g' -> same_shape g g'.
Proof.
  unfold op_add. destruct (chk_v g v); cbn [obind]; try discriminate.
  destruct (_ =? _); intros [= <-]; apply sev_shape; [apply sev_vtx|]; apply sev_refl.
Qed.

Lemma op_put_shape g v d g' : op_put g v d = Ok g' -> same_shape g g'.
Proof.
  unfold op_put. destruct (chk_v g v); cbn [obind]; try discriminate. intros H. apply sev_shape. revert H.
  destruct (_ && _); [apply add_store_sev|intros [= <-]]; apply sev_vtx, sev_refl.
Qed.

Lemma op_bind_shape n g v1 v2 a g' : op_bind n g v1 v2 a = Ok g' -> same_shape g g'.
Proof.
  rewrite op_bind_nf.
  destruct (chk_v g v1), (chk_v g v2), (mm_insert n (edg g v1) a v2) as [e'| | |];
    cbn [obind]; try discriminate.
  assert (H1 : same_except_vertices g (set_edges g v1 e')) by apply sev_vtx, sev_refl.
  intros H. apply sev_shape. revert H. unfold bind_groups.
  destruct (_ =? 1), (_ =? 1); [destruct (first_empty g)|..].
  - apply join_group_sev, sev_vtx, sev_members, H1.
  - apply join_group_sev, H1.
  - apply join_group_sev, H1.
  - apply join_group_sev, H1.
  - intros [= <-]. exact H1.
Qed.

Lemma op_data_shape g v g' r : op_data g v = Ok (g', r) -> same_shape g g'.
Proof.
  intros H. apply sev_shape. revert H.
  unfold op_data. destruct (chk_v g v); cbn [obind]; try discriminate.
  destruct (v_pers (vtx g v)).
  - intros [= <- _]. apply sev_refl.
  - destruct (_ =? BRANCH_STATIC).
    + intros [= <- _]. apply sev_vtx, sev_refl.
    + destruct (chk_b _ _); cbn [obind]; try discriminate.
      destruct (_ =? 0); [discriminate|].
      destruct (_ =? 0).
      * destruct (kill _ _) as [g3| | |] eqn:K; cbn [obind]; try discriminate.
        intros [= <- _]. apply sev_members. eapply kill_sev; [|exact K].
        apply sev_store, sev_vtx, sev_refl.
      * intros [= <- _]. apply sev_store, sev_vtx, sev_refl.
  - intros [= <- _]. apply sev_refl.
Qed.

Lemma op_next_id_shape g g' id : op_next_id g = Ok (g', id) -> same_shape g g'.
Proof. intros H. apply op_next_id_inv in H as [-> _]. exact (same_shape_refl g). Qed.

Theorem step_shape n g o g' r : step n g o = Ok (g', r) -> same_shape g g'.
Proof.
  destruct o as [v|v1 v2 a|v d|v| |v a|v|]; cbn [step]; intros H.
  1-7: apply obind_ok in H as (x & E & [= <- _]).
  - exact (op_add_shape _ _ _ E).
  - exact (op_bind_shape _ _ _ _ _ _ E).
  - exact (op_put_shape _ _ _ _ E).
  - destruct x. exact (op_data_shape _ _ _ _ E).
  - destruct x. exact (op_next_id_shape _ _ _ E).
  - apply same_shape_refl.
  - apply same_shape_refl.
  - injection H as <- _. apply same_shape_refl.
Qed.
