(** * Reach: reachability along edges and the count of unseen slots that
    bounds the fuel of a traversal, shared by the proofs about [inspect] (C20,
    PrintFacts.v), [slice]/[slice_some] (C13, SliceFacts.v) and [merge]. *)

From Sodg Require Export Facts Slice.
From Coq Require Export Permutation.

(** [reach p g v u]: [u] can be reached from [v] along edges of [g] that the
    predicate [p] accepts ([p from to label], as in [slice_some]) *)
Inductive reach (p : pred) (g : sodg) (v : nat) : nat -> Prop :=
| reach_refl : reach p g v v
| reach_step u a w :
    reach p g v u -> In (a, w) (edg g u) -> p u w a = true -> reach p g v w.

(** the predicate of [slice]: every edge is accepted *)
Definition ptrue : pred := fun _ _ _ => true.

(** [pclosed p g v]: following accepted edges from [v] never leaves the slots
    of the graph (no call of [vertices.get] with a key over the boundary) *)
Definition pclosed (p : pred) (g : sodg) (v : nat) : Prop :=
  v < cap_of g /\
  forall u a w, reach p g v u -> In (a, w) (edg g u) -> p u w a = true -> w < cap_of g.

(** the same for all edges: what [inspect] needs *)
Definition closed (g : sodg) (v : nat) : Prop :=
  v < cap_of g /\
  forall u a w, reach ptrue g v u -> In (a, w) (edg g u) -> w < cap_of g.

Lemma closed_pclosed g v : closed g v <-> pclosed ptrue g v.
Proof.
  unfold closed, pclosed. split; intros [H1 H2]; split; auto.
  - intros u a w Hr Hi _. eapply H2; eauto.
  - intros u a w Hr Hi. eapply H2; eauto.
Qed.

Lemma reach_unfold p g v w :
  reach p g v w <->
  w = v \/ exists u a, reach p g v u /\ In (a, w) (edg g u) /\ p u w a = true.
Proof.
  split.
  - intros H. destruct H as [|u a w Hu Hin Hp]; [left; reflexivity|].
    right. exists u, a. auto.
  - intros [->|(u & a & Hu & Hin & Hp)]; [apply reach_refl|].
    apply (reach_step p g v u a w); assumption.
Qed.

Lemma closed_unfold g v :
  closed g v <->
  v < cap_of g /\
  forall u a w, reach ptrue g v u -> In (a, w) (edg g u) -> w < cap_of g.
Proof. unfold closed. tauto. Qed.

Lemma pclosed_unfold p g v :
  pclosed p g v <->
  v < cap_of g /\
  forall u a w, reach p g v u -> In (a, w) (edg g u) -> p u w a = true -> w < cap_of g.
Proof. unfold pclosed. tauto. Qed.

Lemma reach_trans p g v u w : reach p g v u -> reach p g u w -> reach p g v w.
Proof.
  intros H1 H2. induction H2 as [|x a y Hux IH Hin Hp]; auto.
  eapply reach_step; eauto.
Qed.

Lemma reach_edge p g v a w : In (a, w) (edg g v) -> p v w a = true -> reach p g v w.
Proof. intros Hi Hp. eapply reach_step; eauto. apply reach_refl. Qed.

Lemma reach_mono (p q : pred) g v u :
  (forall x y a, p x y a = true -> q x y a = true) -> reach p g v u -> reach q g v u.
Proof.
  intros H Hr. induction Hr as [|x a y Hx IH Hin Hp]; [apply reach_refl|].
  eapply reach_step; eauto.
Qed.

Lemma pclosed_reach_lt p g v u : pclosed p g v -> reach p g v u -> u < cap_of g.
Proof.
  intros [Hv Hc] Hr. destruct Hr as [|x a y Hx Hin Hp]; auto. eapply Hc; eauto.
Qed.

Lemma closed_reach_lt g v u : closed g v -> reach ptrue g v u -> u < cap_of g.
Proof. intros Hc. apply pclosed_reach_lt. apply closed_pclosed; auto. Qed.

Lemma reach_in_closed_set p g v (S : nat -> Prop) :
  S v ->
  (forall u a w, S u -> In (a, w) (edg g u) -> p u w a = true -> S w) ->
  forall u, reach p g v u -> S u.
Proof.
  intros Hv Hs u Hr. induction Hr as [|x a y Hx IH Hin Hp]; auto. eapply Hs; eauto.
Qed.

Definition out_edges (g : sodg) (u : nat) : list (nat * label * nat) :=
  map (fun e : label * nat => (u, fst e, snd e)) (edg g u).

Definition unseen (n : nat) (s : list nat) : nat :=
  length (filter (fun x => negb (mem x s)) (iota n)).

Lemma in_unseen n s x : In x (filter (fun x => negb (mem x s)) (iota n)) <-> x < n /\ ~ In x s.
Proof. rewrite filter_In, in_iota, negb_true_iff, mem_false. reflexivity. Qed.

Lemma unseen_nil n : unseen n [] = n.
Proof. unfold unseen. rewrite filter_id by reflexivity. apply seq_length. Qed.

Lemma unseen_le n s1 s2 : incl s1 s2 -> unseen n s2 <= unseen n s1.
Proof.
  intros Hi. apply NoDup_incl_length; [apply NoDup_filter, seq_NoDup|].
  intros x. rewrite !in_unseen. intros [Hx Hn]. auto.
Qed.

Lemma unseen_lt n s1 s2 y :
  incl s1 s2 -> y < n -> ~ In y s1 -> In y s2 -> unseen n s2 < unseen n s1.
Proof.
  intros Hi Hy H1 H2.
  apply (NoDup_incl_length (l := y :: filter (fun x => negb (mem x s2)) (iota n))).
  - constructor; [|apply NoDup_filter, seq_NoDup]. rewrite in_unseen. tauto.
  - intros x [<-|Hx]; apply in_unseen; [tauto|]. apply in_unseen in Hx as [Hx Hn]. auto.
Qed.

Lemma unseen_cons n K y : y < n -> ~ In y K -> unseen n (y :: K) < unseen n K.
Proof.
  intros Hy Hn. apply unseen_lt with (y := y); [apply incl_tl, incl_refl|exact Hy|exact Hn|left; reflexivity].
Qed.

Lemma forallb_edges_in (f : nat -> label * nat -> bool) g l :
  forallb (fun u => forallb (f u) (edg g u)) l = true ->
  forall u e, In u l -> In e (edg g u) -> f u e = true.
Proof.
  intros H u e Hu. rewrite forallb_forall in H. specialize (H u Hu).
  rewrite forallb_forall in H. exact (H e).
Qed.

(** a list that holds the targets of all edges of its elements holds whatever
    is reachable from one of them *)
Lemma reach_in_closed_list p g v l :
  forallb (fun u => forallb (fun e : label * nat => mem (snd e) l) (edg g u)) l = true ->
  In v l -> forall u, reach p g v u -> In u l.
Proof.
  intros H Hv. apply (reach_in_closed_set p g v (fun u => In u l) Hv).
  intros u a w Hu Hin _. apply mem_In. exact (forallb_edges_in _ g l H u (a, w) Hu Hin).
Qed.

(** a test over all slots covers every edge: there are none beyond the capacity *)
Lemma forallb_edges (f : nat -> label * nat -> bool) g :
  forallb (fun u => forallb (f u) (edg g u)) (iota (cap_of g)) = true ->
  forall u e, In e (edg g u) -> f u e = true.
Proof.
  intros H u e Hin. destruct (Nat.lt_ge_cases u (cap_of g)) as [Hu|Hu].
  - exact (forallb_edges_in f g _ H u e (proj2 (in_iota u _) Hu) Hin).
  - unfold edg in Hin. rewrite vtx_overflow in Hin by exact Hu. destruct Hin.
Qed.

Definition closedb (g : sodg) : bool :=
  forallb (fun u => forallb (fun e : label * nat => snd e <? cap_of g) (edg g u)) (iota (cap_of g)).

Lemma closedb_pclosed p g v : closedb g = true -> v < cap_of g -> pclosed p g v.
Proof.
  intros Hb Hv. split; [exact Hv|]. intros u a w _ Hin _.
  apply Nat.ltb_lt. exact (forallb_edges _ g Hb u (a, w) Hin).
Qed.

Lemma closedb_closed g v : closedb g = true -> v < cap_of g -> closed g v.
Proof. intros Hb Hv. apply closed_pclosed. apply closedb_pclosed; assumption. Qed.

(** the graph of the non-vacuity examples: three present vertices on a
    cycle 0 -> 1 -> 2 -> 0, a second (parallel) edge 0 -> 1 stored out of
    label order, a self loop on 2, data on 1, and an absent slot 3 *)
Definition ex_cyclic : sodg :=
  set_vtx (set_vtx (set_vtx (op_empty 4)
    0 (mkV 1 hex_empty PEmpty [(Alpha 1, 1); (Alpha 0, 1)]))
    1 (mkV 1 (HVector [7%N]) PStored [(Greek 945, 2)]))
    2 (mkV 1 hex_empty PEmpty [(Alpha 0, 0); (Alpha 5, 2)]).

(** a chain 0 -> 1 -> 2 -> 3 that fills all four slots *)
Definition ex_chain : sodg :=
  set_vtx (set_vtx (set_vtx (set_vtx (op_empty 4)
    0 (mkV 1 hex_empty PEmpty [(Alpha 0, 1)]))
    1 (mkV 1 hex_empty PEmpty [(Alpha 0, 2)]))
    2 (mkV 1 hex_empty PEmpty [(Alpha 0, 3)]))
    3 (mkV 1 hex_empty PEmpty []).
