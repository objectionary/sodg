(** * P_C09: property C09 of the sodg verification.

    "load() of a truncated image is an error: not a graph, not a panic."

    Every proper prefix of the image of a well-formed state makes the decoder
    run out of input ([DEof], bincode's [UnexpectedEof]), which [load()]
    reports as [Err] ([LErr]).  [wf_image_state] is written out in P_C08.v
    ([C08_def_wf_image_state]).

    The general fact behind it holds for every input, well-formed or not
    ([C09_prefix_any_input]): if the decoder accepts some bytes, then on any
    prefix of them it either accepts with the same graph or runs out of
    input; it never panics, never reports another error and never reaches
    the model's cut-off on a prefix of an accepted input.

    The proofs are in SerialFacts.v, SerialMore.v (the two prefix theorems)
    and Wf.v (reachable graphs). *)

From Sodg Require Import Serial SerialFacts Wf SerialMore NextIrrelevant.

Theorem C09_cut :
  forall lim n g k,
    wf_image_state lim n g ->
    k < length (encode g) ->
    psodg lim n (firstn k (encode g)) = DEof.
Proof. exact psodg_cut. Qed.

Check C09_cut :
  forall lim n g k,
    wf_image_state lim n g ->
    k < length (encode g) ->
    psodg lim n (firstn k (encode g)) = DEof.
Print Assumptions C09_cut.

Theorem C09_load_cut :
  forall lim n g k,
    wf_image_state lim n g ->
    k < length (encode g) ->
    decode lim n (firstn k (encode g)) = LErr.
Proof. exact load_cut. Qed.

Check C09_load_cut :
  forall lim n g k,
    wf_image_state lim n g ->
    k < length (encode g) ->
    decode lim n (firstn k (encode g)) = LErr.
Print Assumptions C09_load_cut.

Theorem C09_prefix_any_input :
  forall lim n l e g r,
    psodg lim n (l ++ e) = DOk g r ->
    psodg lim n l = DEof \/
    exists r', psodg lim n l = DOk g r' /\ r = r' ++ e.
Proof. intros lim n l e g r. apply ext_stable_prefix, ext_psodg. Qed.

Check C09_prefix_any_input :
  forall lim n l e g r,
    psodg lim n (l ++ e) = DOk g r ->
    psodg lim n l = DEof \/
    exists r', psodg lim n l = DOk g r' /\ r = r' ++ e.
Print Assumptions C09_prefix_any_input.

(** ** the [DEof] above is the end of the input, not the end of the fuel

    The loops [prepeat] and [pedges_loop] (Serial.v) also answer [DEof] when
    their fuel, [S (length input)], is used up.  It never is: the theorems
    below say why (the argument is given in SerialFacts.v, at [consumes]). *)

Theorem C09_def_consumes :
  forall A (p : parser A),
    consumes p <-> forall l a r, p l = DOk a r -> length r < length l.
Proof. reflexivity. Qed.

Check C09_def_consumes :
  forall A (p : parser A),
    consumes p <-> forall l a r, p l = DOk a r -> length r < length l.
Print Assumptions C09_def_consumes.

Theorem C09_fuel_adequate_repeat :
  forall A (p : parser A),
    consumes p ->
    forall f f' count l,
      length l < f -> length l < f' ->
      prepeat f count p l = prepeat f' count p l.
Proof. exact @prepeat_fuel_any. Qed.

Check C09_fuel_adequate_repeat :
  forall A (p : parser A),
    consumes p ->
    forall f f' count l,
      length l < f -> length l < f' ->
      prepeat f count p l = prepeat f' count p l.
Print Assumptions C09_fuel_adequate_repeat.

Theorem C09_fuel_adequate_edges :
  forall lim n f f' count acc l,
    length l < f -> length l < f' ->
    pedges_loop f count lim n acc l = pedges_loop f' count lim n acc l.
Proof. exact pedges_loop_fuel_any. Qed.

Check C09_fuel_adequate_edges :
  forall lim n f f' count acc l,
    length l < f -> length l < f' ->
    pedges_loop f count lim n acc l = pedges_loop f' count lim n acc l.
Print Assumptions C09_fuel_adequate_edges.

(** the parsers [prepeat] is used with: bytes of a heap datum, members of a
    group, and the (key, value) entries of the three emaps *)
Theorem C09_element_parsers_consume :
  forall lim n,
    consumes pbyte /\ consumes (psmall lim) /\ consumes (pedge lim) /\
    consumes (pentry lim (psmall lim)) /\
    consumes (pentry lim (pstack lim)) /\
    consumes (pentry lim (pvertex lim n)).
Proof. intros lim n. repeat split; auto 20 with parse. Qed.

Check C09_element_parsers_consume :
  forall lim n,
    consumes pbyte /\ consumes (psmall lim) /\ consumes (pedge lim) /\
    consumes (pentry lim (psmall lim)) /\
    consumes (pentry lim (pstack lim)) /\
    consumes (pentry lim (pvertex lim n)).
Print Assumptions C09_element_parsers_consume.

Theorem C09_def_pentry :
  forall A lim (p : parser A),
    pentry lim p = (k <~ psmall lim ;; v <~ p ;; pret (k, v)) /\
    pemap lim p =
    (kvs <~ pseq (pentry lim p) ;;
     match emap_build kvs with Some l => pret l | None => pfail DPanic end).
Proof. split; reflexivity. Qed.

Check C09_def_pentry :
  forall A lim (p : parser A),
    pentry lim p = (k <~ psmall lim ;; v <~ p ;; pret (k, v)) /\
    pemap lim p =
    (kvs <~ pseq (pentry lim p) ;;
     match emap_build kvs with Some l => pret l | None => pfail DPanic end).
Print Assumptions C09_def_pentry.

(** ** non-vacuity: the hypotheses hold for [example_graph] (SerialFacts.v;
    evaluated there), whose image has 383 bytes *)

Example C09_example_wf :
  wf_image_state 1048576 4 example_graph /\ length (encode example_graph) = 383.
Proof. exact (conj example_wf example_image_size). Qed.

(** each of the 383 proper prefixes is rejected: an instance of
    [C09_load_cut] on the hypotheses just evaluated, not 383 runs of the
    decoder *)
Example C09_example_all_cuts :
  forallb (fun k => is_lerr (decode 1048576 4 (firstn k (encode example_graph))))
          (iota (length (encode example_graph))) = true.
Proof.
  apply forallb_forall. intros k Hk. apply in_seq in Hk.
  rewrite C09_load_cut; [reflexivity|apply C09_example_wf|lia].
Qed.

Example C09_example_full_image_accepted :
  is_lerr (decode 1048576 4 (encode example_graph)) = false.
Proof. rewrite (load_save _ _ _ example_wf). reflexivity. Qed.

(** ** for every graph reachable through the interface *)

Theorem C09_reachable_graphs :
  forall n cap os lim,
  within_limits n cap sinit os -> Forall wf_op os ->
  (16 < lim)%N -> (N.of_nat cap < lim)%N -> (lim <= two64)%N -> (N.of_nat n < two64)%N ->
  exists g, run n (op_empty cap) os = Ok (g, snd (srun sinit os))
    /\ decode lim n (encode g) = LOk (mkG (g_stores g) (g_branches g) (g_vertices g) 0)
    /\ forall k, k < length (encode g) -> decode lim n (firstn k (encode g)) = LErr.
Proof. exact reachable_roundtrip. Qed.

Check C09_reachable_graphs :
  forall n cap os lim,
  within_limits n cap sinit os -> Forall wf_op os ->
  (16 < lim)%N -> (N.of_nat cap < lim)%N -> (lim <= two64)%N -> (N.of_nat n < two64)%N ->
  exists g, run n (op_empty cap) os = Ok (g, snd (srun sinit os))
    /\ decode lim n (encode g) = LOk (mkG (g_stores g) (g_branches g) (g_vertices g) 0)
    /\ forall k, k < length (encode g) -> decode lim n (firstn k (encode g)) = LErr.
Print Assumptions C09_reachable_graphs.

(** ** the set of images is prefix-free (SerialMore.v) *)

(** a complete image is never the beginning of a longer image: a file cut short is not the image of another graph *)
Theorem C09_image_prefix_free :
  forall lim n g1 g2 rest,
    wf_image_state lim n g1 -> wf_image_state lim n g2 ->
    encode g2 = encode g1 ++ rest -> rest = [].
Proof. exact image_prefix_free. Qed.

Check C09_image_prefix_free :
  forall lim n g1 g2 rest,
    wf_image_state lim n g1 -> wf_image_state lim n g2 ->
    encode g2 = encode g1 ++ rest -> rest = [].
Print Assumptions C09_image_prefix_free.

Theorem C09_image_prefix_same :
  forall lim n g1 g2 rest,
    wf_image_state lim n g1 -> wf_image_state lim n g2 ->
    encode g2 = encode g1 ++ rest -> renext 0 g1 = renext 0 g2.
Proof. exact image_prefix_same. Qed.

Check C09_image_prefix_same :
  forall lim n g1 g2 rest,
    wf_image_state lim n g1 -> wf_image_state lim n g2 ->
    encode g2 = encode g1 ++ rest -> renext 0 g1 = renext 0 g2.
Print Assumptions C09_image_prefix_same.

