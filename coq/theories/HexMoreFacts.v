(** * HexMoreFacts: laws of the part of the [Hex] API that no listed property
    covers (HexMore.v): text -> bytes -> text, bool -> bytes -> bool, the
    write of one byte. *)

From Sodg Require Import HexMore SerialFacts HexFacts.

Lemma utf8_decode_enc : forall t fuel,
  forallb is_scalar t = true -> length (concat (map utf8_enc t)) <= fuel ->
  utf8_decode fuel (concat (map utf8_enc t)) = Some t.
Proof.
  induction t as [|c t IH]; intros fuel Hs Hl; cbn [map concat] in *.
  - destruct fuel; reflexivity.
  - apply andb_true_iff in Hs as [Hc Ht].
    pose proof (utf8_enc_nonempty c) as Hne.
    assert (L1 : 1 <= length (utf8_enc c)) by (destruct (utf8_enc c); [contradiction | cbn [length]; lia]).
    rewrite app_length in Hl. destruct fuel as [|f]; [lia|].
    (* the input is not empty, so the decoder reads a character *)
    destruct (utf8_enc c ++ concat (map utf8_enc t)) as [|b l] eqn:E.
    + apply app_eq_nil in E as [E _]. contradiction.
    + cbn [utf8_decode]. rewrite <- E, (pchar_utf8 c Hc), IH by (assumption || lia). reflexivity.
Qed.

Theorem to_utf8_from_str_bytes t :
  forallb is_scalar t = true -> hex_to_utf8 (hex_from_str_bytes t) = Some t.
Proof.
  intros Hs. unfold hex_to_utf8, hex_from_str_bytes. rewrite bytes_from_slice.
  apply utf8_decode_enc; [exact Hs|lia].
Qed.

Theorem to_bool_from_bool b : hex_to_bool (hex_from_bool b) = Ok b.
Proof. destruct b; reflexivity. Qed.

(** [IndexMut]: one byte of the byte string is written; the panic is that of the slice *)
Theorem set_then_bytes h i b :
  wf_hex h = true ->
  match hex_set h i b with
  | Ok h' => (i < nlen (bytes h))%N /\ bytes h' = upd (bytes h) (N.to_nat i) b
  | Panic _ => (nlen (bytes h) <= i)%N
  | _ => False
  end.
Proof.
  intros Hw. destruct h as [l|a n]; cbn [hex_set bytes].
  - destruct (N.ltb_spec i (nlen l)); [split; [assumption|reflexivity]|assumption].
  - apply wf_HBytes_iff in Hw as (Hl & _ & Hn).
    unfold nlen. rewrite firstn_length_le by (rewrite Hl; exact Hn).
    destruct (N.ltb_spec i (N.of_nat n)) as [L|L]; [|exact L].
    split; [exact L|]. cbn [bytes]. apply firstn_upd.
Qed.

Print Assumptions to_utf8_from_str_bytes.
Print Assumptions to_bool_from_bool.
Print Assumptions set_then_bytes.
